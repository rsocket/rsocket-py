(* Positive-fuel search: up to [p] applications of [step], stopping at the first
   state accepted by [ok].  Structural recursion on the binary representation of
   [p], so a fuel of 2^30 costs 30 constructors and evaluation stops at the first hit.
   (CompCert's iteration pattern.) *)
From Coq Require Import Arith PArith List Lia.

Section Find.
  Context {S : Type} (step : S -> S) (ok : S -> bool).

  (* inl s : first accepted state;  inr s : none accepted, s = state after p steps *)
  Fixpoint find_pos (p : positive) (s : S) : S + S :=
    match p with
    | xH => let s' := step s in if ok s' then inl s' else inr s'
    | xO q => match find_pos q s with
              | inl r => inl r
              | inr s' => find_pos q s'
              end
    | xI q => let s1 := step s in
              if ok s1 then inl s1 else
              match find_pos q s1 with
              | inl r => inl r
              | inr s' => find_pos q s'
              end
    end.

  Fixpoint iter_nat (k : nat) (s : S) : S :=
    match k with O => s | Datatypes.S k' => iter_nat k' (step s) end.

  Lemma iter_nat_succ_r k s : iter_nat (Datatypes.S k) s = step (iter_nat k s).
  Proof. revert s. induction k as [|k IH]; intro s; [reflexivity|apply (IH (step s))]. Qed.

  (* The same search with unary fuel.  [find_pos] is this function with the fuel split in halves,
     so it suffices to specify this one. *)
  Fixpoint find_nat (n : nat) (s : S) : S + S :=
    match n with
    | O => inr s
    | Datatypes.S n' => let s' := step s in if ok s' then inl s' else find_nat n' s'
    end.

  Lemma find_nat_add a b : forall s,
    find_nat (a + b) s = match find_nat a s with inl r => inl r | inr s' => find_nat b s' end.
  Proof. induction a as [|a IH]; intro s; cbn; [reflexivity|]. destruct (ok (step s)); [reflexivity|apply IH]. Qed.

  Lemma find_pos_nat p : forall s, find_pos p s = find_nat (Pos.to_nat p) s.
  Proof.
    induction p as [q IH|q IH|]; intro s; cbn [find_pos]; [rewrite Pos2Nat.inj_xI|rewrite Pos2Nat.inj_xO|reflexivity];
      cbn [Nat.mul find_nat]; rewrite Nat.add_0_r, find_nat_add, <- IH.
    - destruct (ok (step s)); [reflexivity|]. destruct (find_pos q (step s)); [reflexivity|apply IH].
    - destruct (find_pos q s); [reflexivity|apply IH].
  Qed.

  Lemma find_nat_spec n : forall s, exists k, (1 <= k <= Datatypes.S n)%nat /\
    find_nat (Datatypes.S n) s = (if ok (iter_nat k s) then inl (iter_nat k s) else inr (iter_nat k s)) /\
    (forall j, (1 <= j < k)%nat -> ok (iter_nat j s) = false) /\
    (ok (iter_nat k s) = false -> k = Datatypes.S n).
  Proof.
    induction n as [|n IH]; intro s; cbn [find_nat] in *.
    - exists 1%nat. cbn. destruct (ok (step s)); repeat split; (reflexivity || lia).
    - destruct (ok (step s)) eqn:E.
      + exists 1%nat. cbn. rewrite E. repeat split; (discriminate || lia).
      + destruct (IH (step s)) as (k & Hk & -> & Hmin & Hlast). exists (Datatypes.S k).
        split; [lia|]. split; [reflexivity|]. split; [|intro F; rewrite (Hlast F); reflexivity].
        intros [|[|j]] Hj; [lia|exact E|apply (Hmin (Datatypes.S j)); lia].
  Qed.

  Lemma find_pos_spec p s : exists k, (1 <= k <= Pos.to_nat p)%nat /\
    find_pos p s = (if ok (iter_nat k s) then inl (iter_nat k s) else inr (iter_nat k s)) /\
    (forall j, (1 <= j < k)%nat -> ok (iter_nat j s) = false) /\
    (ok (iter_nat k s) = false -> k = Pos.to_nat p).
  Proof.
    rewrite find_pos_nat. destruct (Pos2Nat.is_succ p) as (n & ->). apply find_nat_spec.
  Qed.
End Find.

Lemma fold_left_inv {A B} (f : A -> B -> A) (P : A -> Prop) :
  (forall a b, P a -> P (f a b)) -> forall l a, P a -> P (fold_left f l a).
Proof. intros Hf l. induction l as [|b l IH]; intros a Ha; [exact Ha|apply IH, Hf, Ha]. Qed.
