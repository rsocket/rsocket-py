(* Byte strings as [list byte]; big-endian fixed-width integers; N-indexed take/drop (so that a
   declared 24-bit length never builds a unary nat). *)
From Coq Require Import ZArith NArith List Bool Lia ZifyBool Strings.Byte.
Import ListNotations.
Open Scope N_scope.
(* lets lia see / and mod (be_dec and the codec proofs need it); as the one post-hook it also replaces ZifyBool's
   [elim_bool_cstr], which case-splits on every boolean of the context before lia runs *)
Ltac Zify.zify_post_hook ::= Z.to_euclidean_division_equations.

Definition bytes := list byte.

Definition byte_of_N (n : N) : byte :=
  match Byte.of_N (n mod 256) with Some b => b | None => x00 end.

Lemma to_N_byte_of_N n : Byte.to_N (byte_of_N n) = n mod 256.
Proof.
  unfold byte_of_N. destruct (Byte.of_N (n mod 256)) as [b|] eqn:E.
  - apply Byte.to_of_N in E. exact E.
  - exfalso. apply Byte.of_N_None_iff in E. pose proof (N.mod_lt n 256). lia.
Qed.

Lemma byte_of_to_N b : byte_of_N (Byte.to_N b) = b.
Proof.
  unfold byte_of_N. pose proof (Byte.to_N_bounded b).
  rewrite N.mod_small by lia. rewrite Byte.of_to_N. reflexivity.
Qed.

Lemma to_N_lt b : Byte.to_N b < 256.
Proof. pose proof (Byte.to_N_bounded b). lia. Qed.

Fixpoint be (k : nat) (v : N) : bytes :=
  match k with
  | O => []
  | S k' => be k' (v / 256) ++ [byte_of_N v]
  end.

Definition dec (l : bytes) : N := fold_left (fun acc b => acc * 256 + Byte.to_N b) l 0.

Lemma be_length k : forall v, length (be k v) = k.
Proof. induction k as [|k IH]; intro v; cbn [be]; [reflexivity|]. rewrite app_length, IH. cbn. lia. Qed.

Lemma dec_snoc l b : dec (l ++ [b]) = dec l * 256 + Byte.to_N b.
Proof. unfold dec. rewrite fold_left_app. reflexivity. Qed.

Lemma dec_be k : forall v, dec (be k v) = v mod 256 ^ N.of_nat k.
Proof.
  induction k as [|k IH]; intro v.
  - cbn. rewrite N.mod_1_r. reflexivity.
  - cbn [be]. rewrite dec_snoc, IH, to_N_byte_of_N.
    rewrite Nat2N.inj_succ, N.pow_succ_r'.
    assert (0 < 256 ^ N.of_nat k) by (apply N.neq_0_lt_0, N.pow_nonzero; discriminate).
    set (P := 256 ^ N.of_nat k) in *.
    rewrite N.mod_mul_r by lia. lia.
Qed.

Lemma dec_be_small k v : v < 256 ^ N.of_nat k -> dec (be k v) = v.
Proof. intro H. rewrite dec_be. apply N.mod_small. exact H. Qed.

Lemma dec_bound l : dec l < 256 ^ N.of_nat (length l).
Proof.
  induction l as [|b l IH] using rev_ind.
  - cbn. lia.
  - rewrite dec_snoc, app_length. cbn [length]. replace (length l + 1)%nat with (S (length l)) by lia.
    rewrite Nat2N.inj_succ, N.pow_succ_r'. pose proof (to_N_lt b). lia.
Qed.

Fixpoint takeN (l : bytes) (n : N) : bytes :=
  match l with
  | [] => []
  | x :: r => if n =? 0 then [] else x :: takeN r (N.pred n)
  end.

Fixpoint dropN (l : bytes) (n : N) : bytes :=
  match l with
  | [] => []
  | x :: r => if n =? 0 then l else dropN r (N.pred n)
  end.

Lemma takeN_firstn l : forall n, takeN l n = firstn (N.to_nat n) l.
Proof.
  induction l as [|x r IH]; intro n; cbn [takeN].
  - rewrite firstn_nil. reflexivity.
  - destruct (N.eqb_spec n 0) as [->|Hn]; [reflexivity|].
    replace (N.to_nat n) with (S (N.to_nat (N.pred n))) by lia. cbn [firstn]. rewrite IH. reflexivity.
Qed.

Lemma dropN_skipn l : forall n, dropN l n = skipn (N.to_nat n) l.
Proof.
  induction l as [|x r IH]; intro n; cbn [dropN].
  - rewrite skipn_nil. reflexivity.
  - destruct (N.eqb_spec n 0) as [->|Hn]; [reflexivity|].
    replace (N.to_nat n) with (S (N.to_nat (N.pred n))) by lia. cbn [skipn]. rewrite IH. reflexivity.
Qed.

Definition lenN (l : bytes) : N := N.of_nat (length l).

Lemma takeN_app_exact a b : takeN (a ++ b) (lenN a) = a.
Proof. rewrite takeN_firstn. unfold lenN. rewrite Nat2N.id. rewrite firstn_app, Nat.sub_diag, firstn_all. cbn. apply app_nil_r. Qed.

Lemma dropN_app_exact a b : dropN (a ++ b) (lenN a) = b.
Proof. rewrite dropN_skipn. unfold lenN. rewrite Nat2N.id. rewrite skipn_app, Nat.sub_diag, skipn_all. reflexivity. Qed.

Lemma takeN_dropN l n : takeN l n ++ dropN l n = l.
Proof. rewrite takeN_firstn, dropN_skipn. apply firstn_skipn. Qed.

Lemma takeN_all l n : lenN l <= n -> takeN l n = l.
Proof. intro H. rewrite takeN_firstn. apply firstn_all2. unfold lenN in H. lia. Qed.

Lemma dropN_all l n : lenN l <= n -> dropN l n = [].
Proof. intro H. rewrite dropN_skipn. apply skipn_all2. unfold lenN in H. lia. Qed.

(* struct.unpack_from on a k-byte big-endian field: fails when the buffer is short *)
Definition get_be (k : nat) (buf : bytes) : option (N * bytes) :=
  if (length buf <? k)%nat then None else Some (dec (firstn k buf), skipn k buf).

Lemma get_be_be k v rest : get_be k (be k v ++ rest) = Some (v mod 256 ^ N.of_nat k, rest).
Proof.
  unfold get_be. rewrite app_length, be_length.
  destruct (Nat.ltb_spec (k + length rest) k) as [H|H]; [lia|].
  rewrite firstn_app, skipn_app, be_length, Nat.sub_diag. cbn [firstn skipn]. rewrite app_nil_r.
  rewrite <- (be_length k v) at 1 3. rewrite firstn_all, skipn_all, dec_be. reflexivity.
Qed.

Lemma get_be_app k v rest : v < 256 ^ N.of_nat k -> get_be k (be k v ++ rest) = Some (v, rest).
Proof. intro Hv. rewrite get_be_be, N.mod_small by exact Hv. reflexivity. Qed.

Lemma be_dec l : be (length l) (dec l) = l.
Proof.
  induction l as [|b l IH] using rev_ind; [reflexivity|].
  rewrite app_length, Nat.add_comm. cbn [length Nat.add be]. rewrite dec_snoc. pose proof (to_N_lt b).
  replace ((dec l * 256 + Byte.to_N b) / 256) with (dec l) by lia. rewrite IH. f_equal. f_equal.
  rewrite <- (byte_of_to_N b) at 2. unfold byte_of_N.
  replace ((dec l * 256 + Byte.to_N b) mod 256) with (Byte.to_N b mod 256) by lia. reflexivity.
Qed.

Lemma get_be_some k buf v rest : get_be k buf = Some (v, rest) ->
  buf = be k v ++ rest /\ v < 256 ^ N.of_nat k.
Proof.
  unfold get_be. destruct (Nat.ltb_spec (length buf) k) as [H|H]; [discriminate|]. intros [= <- <-].
  assert (length (firstn k buf) = k) as Hl by (rewrite firstn_length; lia).
  split; [rewrite <- Hl at 1; rewrite be_dec; symmetry; apply firstn_skipn|rewrite <- Hl at 2; apply dec_bound].
Qed.

Lemma get_be_length k buf v rest : get_be k buf = Some (v, rest) -> (length rest + k = length buf)%nat.
Proof. intro E. apply get_be_some in E. destruct E as [-> _]. rewrite app_length, be_length. lia. Qed.

Fixpoint bytes_eqb (a b : bytes) : bool :=
  match a, b with
  | [], [] => true
  | x :: a', y :: b' => Byte.eqb x y && bytes_eqb a' b'
  | _, _ => false
  end.

Lemma bytes_eqb_eq a : forall b, bytes_eqb a b = true <-> a = b.
Proof.
  induction a as [|x a IH]; intros [|y b]; cbn; split; intro H; try discriminate; try reflexivity.
  - apply andb_true_iff in H. destruct H as [H1 H2]. apply Byte.byte_dec_bl in H1. apply IH in H2. subst. reflexivity.
  - injection H as -> ->. apply andb_true_iff. split; [apply Byte.byte_dec_lb; reflexivity|apply IH; reflexivity].
Qed.

Lemma bytes_eqb_spec a b : reflect (a = b) (bytes_eqb a b).
Proof. apply iff_reflect. symmetry. apply bytes_eqb_eq. Qed.

Definition is_nil (l : bytes) : bool := match l with [] => true | _ => false end.

Lemma dropN_length l n : length (dropN l n) = (length l - N.to_nat n)%nat.
Proof. rewrite dropN_skipn. apply skipn_length. Qed.
Lemma takeN_length l n : length (takeN l n) = Nat.min (N.to_nat n) (length l).
Proof. rewrite takeN_firstn. apply firstn_length. Qed.
Lemma takeN_app_le (a b : bytes) n : n <= lenN a -> takeN (a ++ b) n = takeN a n.
Proof.
  intro H. rewrite !takeN_firstn, firstn_app. unfold lenN in H.
  replace (N.to_nat n - length a)%nat with 0%nat by lia. cbn [firstn]. apply app_nil_r.
Qed.
Lemma dropN_app_le (a b : bytes) n : n <= lenN a -> dropN (a ++ b) n = dropN a n ++ b.
Proof.
  intro H. rewrite !dropN_skipn, skipn_app. unfold lenN in H.
  replace (N.to_nat n - length a)%nat with 0%nat by lia. reflexivity.
Qed.

Lemma lenN_nil : lenN [] = 0.
Proof. reflexivity. Qed.
Lemma lenN_cons x (l : bytes) : lenN (x :: l) = 1 + lenN l.
Proof. unfold lenN. cbn [length]. lia. Qed.
Lemma lenN_app (a b : bytes) : lenN (a ++ b) = lenN a + lenN b.
Proof. unfold lenN. rewrite app_length. lia. Qed.
Lemma lenN_be k v : lenN (be k v) = N.of_nat k.
Proof. unfold lenN. rewrite be_length. reflexivity. Qed.
Lemma lenN_zero (l : bytes) : lenN l = 0 <-> l = [].
Proof. destruct l; [split; reflexivity|]. rewrite lenN_cons. split; [lia|discriminate]. Qed.
Lemma is_nil_lenN (l : bytes) : is_nil l = (lenN l =? 0).
Proof. destruct l; [reflexivity|]. rewrite lenN_cons. symmetry. apply N.eqb_neq. lia. Qed.
Lemma is_nil_true (l : bytes) : is_nil l = true <-> l = [].
Proof. destruct l; cbn; split; congruence. Qed.
Lemma lenN_takeN (l : bytes) n : lenN (takeN l n) = N.min n (lenN l).
Proof. unfold lenN. rewrite takeN_length. lia. Qed.
Lemma lenN_dropN (l : bytes) n : lenN (dropN l n) = lenN l - n.
Proof. unfold lenN. rewrite dropN_length. lia. Qed.
Lemma takeN_app_len (a b : bytes) n : lenN a = n -> takeN (a ++ b) n = a.
Proof. intros <-. apply takeN_app_exact. Qed.
Lemma dropN_app_len (a b : bytes) n : lenN a = n -> dropN (a ++ b) n = b.
Proof. intros <-. apply dropN_app_exact. Qed.

(* [pat] of harness/frames.py: byte i of pattern [seed] is (seed*7 + i*13 + i/251) mod 256.  The harness writes the
   long payloads of its correspondence cases as [pat seed off len] instead of literals *)
Fixpoint pat_from (seed : N) (i : N) (len : nat) : bytes :=
  match len with
  | O => []
  | S l => byte_of_N (seed * 7 + i * 13 + i / 251) :: pat_from seed (N.succ i) l
  end.
Definition pat (seed off : N) (len : nat) : bytes := pat_from seed off len.
