(* C01 and C06 above the pipeline: two endpoints joined by per-stream FIFO links (model/Network.v). *)
From Coq Require Import NArith List Bool Lia.
From RSV Require Import gen.GenConst lib.Bytes model.Frame model.Fragmenter model.Endpoint model.Network proofs.EndpointObjects proofs.EndpointProofs proofs.EndpointWire.
Import ListNotations.
Open Scope N_scope.

Lemma app_payloads_app a b : app_payloads (a ++ b) = app_payloads a ++ app_payloads b.
Proof. unfold app_payloads. apply flat_map_app. Qed.

Lemma sent_frames_app a b : sent_frames (a ++ b) = sent_frames a ++ sent_frames b.
Proof. unfold sent_frames. apply flat_map_app. Qed.

Lemma on_stream_app k a b : on_stream k (a ++ b) = on_stream k a ++ on_stream k b.
Proof. unfold on_stream. apply filter_app. Qed.

Lemma pmap_app {A B} (f : A -> option B) a b : pmap f (a ++ b) = pmap f a ++ pmap f b.
Proof. induction a as [|x a IH]; [reflexivity|]. cbn [pmap app]. destruct (f x); cbn [app]; rewrite IH; reflexivity. Qed.

Lemma subseq_refl {A} (l : list A) : subseq l l.
Proof. induction l; constructor; assumption. Qed.

Lemma subseq_app {A} (a b c d : list A) : subseq a b -> subseq c d -> subseq (a ++ c) (b ++ d).
Proof.
  intros H1 H2. induction H1 as [l|x a b _ IH|x a b _ IH]; cbn [app].
  - induction l as [|y l IHl]; [exact H2|]. cbn [app]. apply sub_skip. exact IHl.
  - apply sub_take. exact IH.
  - apply sub_skip. exact IH.
Qed.

Lemma subseq_app_r {A} (a b c : list A) : subseq a b -> subseq a (b ++ c).
Proof. intro H. rewrite <- (app_nil_r a). apply subseq_app; [exact H|constructor]. Qed.

Lemma subseq_filter {A} (p : A -> bool) (a b : list A) : subseq a b -> subseq (filter p a) (filter p b).
Proof.
  intro H. induction H as [l|x a b _ IH|x a b _ IH]; cbn [filter].
  - constructor.
  - destruct (p x); [apply sub_take|]; exact IH.
  - destruct (p x); [apply sub_skip|]; exact IH.
Qed.

Lemma subseq_length {A} (a b : list A) : subseq a b -> (length a <= length b)%nat.
Proof. intro H. induction H; cbn [length]; lia. Qed.

Lemma subseq_In {A} (a b : list A) x : subseq a b -> In x a -> In x b.
Proof.
  intro H. induction H as [l|y a b _ IH|y a b _ IH]; intro Hin.
  - destruct Hin.
  - destruct Hin as [->|Hin]; [left; reflexivity|right; apply IH; exact Hin].
  - right. apply IH. exact Hin.
Qed.

Lemma side_eqb_refl s : side_eqb s s = true.  Proof. destruct s; reflexivity. Qed.
Lemma side_eqb_eq a b : side_eqb a b = true <-> a = b.  Proof. destruct a, b; cbn; split; congruence. Qed.
Lemma side_cases a b : a = b \/ a = other b.  Proof. destruct a, b; cbn; auto. Qed.

Lemma ep_of_update_self n s e q sent : ep_of (update n s e q sent) s = e.
Proof. destruct s; reflexivity. Qed.
Lemma ep_of_update_other n s e q sent : ep_of (update n s e q sent) (other s) = ep_of n (other s).
Proof. destruct s; reflexivity. Qed.

Lemma wire_app a b s : nwire (a ++ b) s = nwire a s ++ nwire b s.
Proof. induction a as [|x a IH]; [reflexivity|]. destruct x; cbn [nwire app]; rewrite IH, app_assoc; reflexivity. Qed.
Lemma delivered_app a b s : delivered (a ++ b) s = delivered a s ++ delivered b s.
Proof. induction a as [|x a IH]; [reflexivity|]. destruct x; cbn [delivered app]; rewrite IH, ?app_assoc; reflexivity. Qed.

Inductive stepped (n : net) : nlabel -> net * list nevent -> Prop :=
| st_idle l : stepped n l (n, [])
| st_local s l : is_recv l = false ->
    stepped n (NLocal s l)
      (update n s (fst (ep_step true (ep_of n s) l)) (inbox n s) (sent_frames (snd (ep_step true (ep_of n s) l))),
       [EvLocal s l (snd (ep_step true (ep_of n s) l))])
| st_deliver s k f q o u : pop (inbox n s) k = Some (f, q) ->
    stepped n (NDeliver s k o u)
      (update n s (fst (recv_dispatch (ep_of n s) f o u)) q (sent_frames (snd (recv_dispatch (ep_of n s) f o u))),
       [EvDeliver s f (snd (recv_dispatch (ep_of n s) f o u))]).

Lemma net_step_stepped n l : stepped n l (net_step n l).
Proof.
  destruct l as [s l|s k o u]; cbn [net_step].
  - destruct (is_recv l) eqn:Hl; [constructor|]. pose proof (st_local n s l Hl) as H. destruct (ep_step true (ep_of n s) l). exact H.
  - destruct (pop (inbox n s) k) as [[f q]|] eqn:Hp; [|constructor]. pose proof (st_deliver n s k f q o u Hp) as H.
    destruct (recv_dispatch (ep_of n s) f o u). exact H.
Qed.

Theorem run_invariant (P : net -> list nevent -> list nlabel -> Prop) :
  (forall n tr l ls, P n tr (l :: ls) -> P (fst (net_step n l)) (tr ++ snd (net_step n l)) ls) ->
  forall ls n tr, P n tr ls -> P (fst (net_run n ls)) (tr ++ snd (net_run n ls)) [].
Proof.
  intro Step. induction ls as [|l ls IH]; intros n tr H; cbn [net_run]; [rewrite app_nil_r; exact H|].
  specialize (IH _ _ (Step _ _ _ _ H)). destruct (net_step n l) as [n1 x]. cbn [fst snd] in *.
  destruct (net_run n1 ls) as [n2 xs]. cbn [fst snd] in *. rewrite app_assoc. exact IH.
Qed.

Corollary history_invariant (P : net -> list nevent -> Prop) :
  P net_init [] -> (forall n tr l, P n tr -> P (fst (net_step n l)) (tr ++ snd (net_step n l))) ->
  forall ls, P (fst (net_run net_init ls)) (snd (net_run net_init ls)).
Proof. intros H0 Step ls. exact (run_invariant (fun n tr _ => P n tr) (fun n tr l _ => Step n tr l) ls net_init [] H0). Qed.

Lemma pop_spec : forall q k f r, pop q k = Some (f, r) ->
  fsid f = k /\ forall j, on_stream j q = on_stream j [f] ++ on_stream j r.
Proof.
  induction q as [|x q IH]; intros k f r H; [discriminate|]. cbn [pop] in H.
  destruct (N.eqb_spec (fsid x) k) as [E|Hne].
  - injection H as -> ->. split; [exact E|]. intro j. exact (on_stream_app j [f] r).
  - destruct (pop q k) as [[g r']|] eqn:Hp; [|discriminate]. injection H as -> <-.
    destruct (IH k f r' Hp) as [Hs Hon]. split; [exact Hs|]. intro j. unfold on_stream in *. cbn [filter]. rewrite (Hon j). cbn [filter].
    (* x, which stays, and f are on different streams *)
    destruct (N.eqb_spec (fsid x) j), (N.eqb_spec (fsid f) j); try reflexivity. congruence.
Qed.

Lemma step_link n l s k :
  on_stream k (inbox n s) ++ on_stream k (nwire (snd (net_step n l)) (other s)) =
  on_stream k (delivered (snd (net_step n l)) s) ++ on_stream k (inbox (fst (net_step n l)) s).
Proof.
  destruct (net_step_stepped n l) as [l|s0 l _|s0 k0 f q o u Hp]; cbn [fst snd nwire delivered].
  - apply app_nil_r.
  - destruct s, s0; unfold on_stream; cbn [other side_eqb inbox update to_a to_b app filter]; rewrite ?filter_app, ?app_nil_r; reflexivity.
  - (* at s the popped frame moves from the inbox to what was delivered (pop_spec); at the peer nothing of s changes *)
    destruct (pop_spec _ _ _ _ Hp) as [_ Hon].
    destruct s, s0; unfold on_stream in *; cbn [other side_eqb inbox update to_a to_b app filter] in *; rewrite ?filter_app, ?app_nil_r;
      try reflexivity; apply Hon.
Qed.

Definition in_flight (n : net) (tr : list nevent) : Prop := forall s k,
  on_stream k (nwire tr (other s)) = on_stream k (delivered tr s) ++ on_stream k (inbox n s).

Lemma in_flight_step n tr l : in_flight n tr -> in_flight (fst (net_step n l)) (tr ++ snd (net_step n l)).
Proof. intros H s k. rewrite wire_app, delivered_app, !on_stream_app, H, <- !app_assoc. f_equal. apply step_link. Qed.

Theorem run_in_flight ls : in_flight (fst (net_run net_init ls)) (snd (net_run net_init ls)).
Proof. apply history_invariant; [intros [] k; reflexivity|exact in_flight_step]. Qed.

Definition at_most {B} (c : option B) (l : list B) : Prop := l = [] \/ exists p, c = Some p /\ l = [p].

Definition brought {B} (c : frame -> option B) (i : input) : option B :=
  match i with OnFrame f _ | OnSetup f _ => c f | _ => None end.

(* A quantity the application is given through the effects of a section, g x with each effect x, of which a frame f
   carries at most the one value c f: payloads below, credit in proofs/NetworkCredit.v. *)
Section Quantity.
  Context {B : Type} (g : effect -> list B) (c : frame -> option B).
  Hypothesis g_enq : forall f, g (XEnq f) = [].
  Hypothesis g_raised : g XRaised = [].
  Hypothesis g_obj : forall oid o i, at_most (brought c i) (flat_map g (c_effs (obj_step oid o i))).
  Hypothesis g_call : forall f, at_most (c f) (flat_map g (handler_call f)).
  Hypothesis c_sweep : forall sid, c (sweep_frame sid) = None.

  Lemma enq_none r : flat_map g (map XEnq r) = [].
  Proof. induction r as [|f r IH]; [reflexivity|]. cbn [map flat_map]. rewrite g_enq. exact IH. Qed.

  Theorem dispatch_at_most e f o u : at_most (c f) (flat_map g (snd (recv_dispatch e f o u))).
  Proof.
    destruct (recv_dispatch_dispatched e f o u) as [oid ob _ _|ob hs _ _|called r _]; cbn [snd perform]; rewrite ?flat_map_app.
    - assert (flat_map g (if snd (obj_frame oid ob f u) then [raised_error (fsid f) EC_APPLICATION_ERROR] else []) = []) as ->
        by (destruct (snd _); unfold raised_error; cbn; rewrite ?g_enq; reflexivity).
      rewrite app_nil_r. exact (g_obj oid ob (OnFrame f u)).
    - exact (g_obj _ ob (OnSetup f hs)).
    - rewrite enq_none, app_nil_r. destruct called; [apply g_call|left; reflexivity].
  Qed.

  Lemma obj_none oid o i : brought c i = None -> flat_map g (c_effs (obj_step oid o i)) = [].
  Proof. intro H. destruct (g_obj oid o i) as [E|(p & E & _)]; [exact E|congruence]. Qed.

  (* the sweep hands requesters the synthetic ERROR, which carries nothing, and disposes *)
  Lemma sweep_none : forall entries e, flat_map g (snd (close_all e entries)) = [].
  Proof.
    apply (sweep_effects (fun x => flat_map g x = [])); [reflexivity|intros a b Ha Hb; rewrite flat_map_app, Ha, Hb; reflexivity| |].
    - intros oid o sid. exact (obj_none oid o (OnFrame (sweep_frame sid) true) (c_sweep sid)).
    - intros oid o. exact (obj_none oid o OnDispose eq_refl).
  Qed.

  Theorem local_none u e l : is_recv l = false -> flat_map g (snd (ep_step u e l)) = [].
  Proof.
    intro Hl. destruct (local_step_effs u e l) as [->|[(oid & o & _ & _ & ->)|Hs]];
      [reflexivity|exact (obj_none oid o (OnLocal l) eq_refl)|].
    destruct l; try discriminate; cbn [ep_step]; try apply sweep_none; try (destruct (alloc e) as [[sid|] e1]);
      cbn [snd flat_map]; rewrite ?g_enq, ?g_raised; reflexivity.
  Qed.

  (* [got] (model/Network.v) is this function for payloads and [credits_got] (proofs/NetworkCredit.v) for credit, by
     conversion: [got_app], [credits_got_app] and the instances of [seen_on_wire] rely on that *)
  Fixpoint seen (tr : list nevent) (s : side) (k : N) : list B :=
    match tr with
    | [] => []
    | EvDeliver s' f effs :: r => (if side_eqb s' s && (fsid f =? k) then flat_map g effs else []) ++ seen r s k
    | EvLocal s' _ effs :: r => (if side_eqb s' s then flat_map g effs else []) ++ seen r s k
    end.

  Lemma seen_app a b s k : seen (a ++ b) s k = seen a s k ++ seen b s k.
  Proof. induction a as [|x a IH]; [reflexivity|]. destruct x; cbn [seen app]; rewrite IH, app_assoc; reflexivity. Qed.

  Lemma step_seen n l s k :
    subseq (seen (snd (net_step n l)) s k) (pmap c (on_stream k (delivered (snd (net_step n l)) s))).
  Proof.
    destruct (net_step_stepped n l) as [l|s0 l Hl|s0 k0 f q o u _]; cbn [snd seen delivered].
    - constructor.
    - rewrite (local_none true _ l Hl). destruct (side_eqb s0 s); constructor.
    - rewrite !app_nil_r. destruct (side_eqb s0 s); cbn [andb]; [|constructor].
      cbn [on_stream filter]. destruct (fsid f =? k); [|constructor]. cbn [pmap].
      destruct (dispatch_at_most (ep_of n s0) f o u) as [->|(p & -> & ->)]; [constructor|apply subseq_refl].
  Qed.

  Theorem seen_on_wire ls s k :
    let tr := snd (net_run net_init ls) in
    subseq (seen tr s k) (pmap c (on_stream k (nwire tr (other s)))).
  Proof.
    cbn zeta. rewrite (run_in_flight ls s k), pmap_app. apply subseq_app_r.
    apply (history_invariant (fun _ tr => subseq (seen tr s k) (pmap c (on_stream k (delivered tr s))))); [constructor|].
    intros n tr l H. rewrite seen_app, delivered_app, on_stream_app, pmap_app. apply subseq_app; [exact H|apply step_seen].
  Qed.
End Quantity.

Lemma obj_step_payloads oid o i : at_most (brought carried i) (app_payloads (c_effs (obj_step oid o i))).
Proof. unfold at_most. obj_cases o i; cbn; first [left; reflexivity|right; eexists; split; reflexivity]. Qed.

Lemma call_payloads f : at_most (carried f) (app_payloads (handler_call f)).
Proof. unfold at_most. destruct f; cbn; first [left; reflexivity|right; eexists; split; reflexivity]. Qed.

Theorem dispatch_intact e f o u :
  app_payloads (snd (recv_dispatch e f o u)) = [] \/
  exists p, carried f = Some p /\ app_payloads (snd (recv_dispatch e f o u)) = [p].
Proof. apply (dispatch_at_most _ carried); [reflexivity|exact obj_step_payloads|exact call_payloads]. Qed.

Theorem local_no_payloads u e l : is_recv l = false -> app_payloads (snd (ep_step u e l)) = [].
Proof. apply (local_none _ carried); [reflexivity|reflexivity|exact obj_step_payloads|reflexivity]. Qed.

Lemma got_app a b s k : got (a ++ b) s k = got a s k ++ got b s k.
Proof. exact (seen_app _ a b s k). Qed.

(* frames that carry an element / request / response payload (a bare COMPLETE does not) *)
Definition pcarried (f : frame) : option (bytes * bytes) :=
  match f with
  | FPayload _ _ _ _ nx md d => if nx then Some (md, d) else None
  | _ => carried f
  end.

Definition given (i : input) : option (bytes * bytes) := match i with OnLocal l => label_payload l | _ => None end.

Lemma obj_step_emission oid o i : at_most (given i) (pmap pcarried (sent_frames (c_effs (obj_step oid o i)))).
Proof. unfold at_most. obj_cases o i; cbn; first [left; reflexivity|right; eexists; split; reflexivity]. Qed.

Lemma reaction_no_payload f g : reaction_ok f g -> pcarried g = None.
Proof. intros [_ H]. destruct g; try contradiction; try reflexivity. destruct H as [_ [_ [-> _]]]. reflexivity. Qed.

(* the object registered for the stream still expects elements / its response *)
Definition receptive (o : hobj) : bool :=
  match o_kind o with
  | KRRReq => match o_fut o with FPending => true | _ => false end
  | KRSReq => o_has_sub o
  | KChanReq | KChanResp => o_has_sub o && negb (o_recv o)
  | _ => false
  end.

Definition for_object (oid : nat) (x : effect) : Prop :=
  match x with
  | XFut i _ _ _ | XCb i _ | XPub i _ | XAppFutCancel i => i = oid
  | XEnq _ | XHandler _ _ _ | XRaised => True
  end.

(* j = length (objs e): the object this dispatch creates *)
Theorem dispatch_addr e f o u :
  Forall (fun x => forall j, eff_oid x = Some j ->
                   tget (table e) (fsid f) = Some j \/ (tget (table e) (fsid f) = None /\ j = length (objs e)))
         (snd (recv_dispatch e f o u)).
Proof.
  destruct (recv_dispatch_dispatched e f o u) as [oid ob Ht _|ob hs Ht _|called r Hr]; cbn [snd perform].
  - apply Forall_app. split; [|destruct (snd _); repeat constructor; discriminate].
    eapply Forall_impl; [|apply obj_step_addr]. intros x Hx j Hj. left. rewrite (Hx j Hj). exact Ht.
  - eapply Forall_impl; [|apply obj_step_addr]. intros x Hx j Hj. right. rewrite (Hx j Hj). split; [exact Ht|reflexivity].
  - eapply Forall_impl; [|exact (answer_plain f r Hr called)]. intros x [E _] j Hj. congruence.
Qed.

Theorem element_delivered e sid oid ob ign fo co md d oc u :
  sid <> 0 -> tget (table e) sid = Some oid -> nth_error (objs e) oid = Some ob -> receptive ob = true ->
  let effs := snd (recv_dispatch e (FPayload sid ign fo co true md d) oc u) in
  app_payloads effs = [(md, d)] /\ Forall (for_object oid) effs.
Proof.
  intros Hs Ht Ho Hr. cbv zeta. split.
  - apply N.eqb_neq in Hs.
    rewrite (recv_dispatch_stream e (FPayload sid ign fo co true md d) oc u oid ob); [|apply orb_false_iff; split; [exact Hs|reflexivity]|exact Ht|exact Ho].
    unfold receptive in Hr. cbn [snd obj_step]. unfold obj_frame.
    destruct (o_kind ob), (o_fut ob), (o_has_sub ob), (o_recv ob); try discriminate Hr; destruct co; reflexivity.
  - eapply Forall_impl; [|apply dispatch_addr]. cbn [fsid]. intros x Hx.
    destruct x; try exact I; (destruct (Hx _ eq_refl) as [E|[E _]]; congruence).
Qed.

(* also on id 0, where the handler is called before the request is refused *)
Theorem request_delivered e f o u : is_request_type f = true -> tget (table e) (fsid f) = None ->
  exists p, carried f = Some p /\ app_payloads (snd (recv_dispatch e f o u)) = [p].
Proof.
  intros Hq Ht. unfold recv_dispatch. rewrite Hq, orb_true_r.
  destruct f; try discriminate Hq; cbn [fsid] in *; rewrite Ht; destruct (sid =? CONNECTION_STREAM_ID);
    destruct o as [| | |hp hs|]; cbn [default_outcome]; try destruct hp, hs; try destruct complete; eexists; split; reflexivity.
Qed.

(* on_wire is what the pipeline does to a complete payload frame: the sender's (single) fragment of it, as decoded *)
Lemma on_wire_is_pipeline sid ign co nx md d :
  norm (mk_fragment (FPayload sid ign false co nx md d) true None md d) = on_wire (FPayload sid ign false co nx md d).
Proof. reflexivity. Qed.

Lemma on_wire_carried f : carried (on_wire f) = carried f /\ fsid (on_wire f) = fsid f /\ ftype (on_wire f) = ftype f.
Proof. destruct f; repeat split; reflexivity. Qed.
