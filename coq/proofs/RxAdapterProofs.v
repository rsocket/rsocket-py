From Coq Require Import NArith List Lia String.
From RSV Require Import model.RxAdapter proofs.PublisherProofs.
Import ListNotations.
Open Scope N_scope.

Lemma rx_run_cons limit s i r :
  let st := rx_step limit s i in let rn := rx_run limit (fst (fst st)) r in
  rx_run limit s (i :: r) = (fst (fst rn), snd (fst st) ++ snd (fst rn), snd st ++ snd rn).
Proof. cbn [rx_run]. destruct (rx_step limit s i) as [[s1 o1] q1]. cbn [fst snd]. destruct (rx_run limit s1 r) as [[s2 o2] q2]. reflexivity. Qed.

Lemma hs_run_cons limit g i r :
  let st := hs_step limit g i in let rn := hs_run limit (fst (fst st)) r in
  hs_run limit g (i :: r) = (fst (fst rn), snd (fst st) ++ snd (fst rn), snd st ++ snd rn).
Proof. cbn [hs_run]. destruct (hs_step limit g i) as [[g1 o1] q1]. cbn [fst snd]. destruct (hs_run limit g1 r) as [[g2 o2] q2]. reflexivity. Qed.

Lemma rx_step_events limit s i : snd (fst (rx_step limit s i)) = events_of [i].
Proof.
  unfold rx_step, events_of. cbn [flat_map]. rewrite app_nil_r. destruct i; cbn [fst snd]; try reflexivity.
  - destruct complete; [reflexivity|]. destruct (_ =? limit); reflexivity.
  - destruct (want_more s); reflexivity.
Qed.

Lemma hs_step_events limit g i : snd (fst (hs_step limit g i)) = events_of [i].
Proof.
  unfold hs_step, events_of. cbn [flat_map]. rewrite app_nil_r. destruct i; cbn [fst snd]; try reflexivity.
  destruct complete; [reflexivity|]. destruct (_ =? limit); reflexivity.
Qed.

Lemma events_of_cons i r : events_of (i :: r) = events_of [i] ++ events_of r.
Proof. unfold events_of. cbn [flat_map]. rewrite app_nil_r. reflexivity. Qed.

Lemma elements_cons i r : elements (i :: r) = elements [i] + elements r.
Proof. unfold elements. cbn [fold_right]. destruct i; lia. Qed.

(* credit accounting: [limit] was requested with the stream request itself.  What is requested after that, plus a request
   still pending, plus the elements counted towards the next batch, is paid for by the elements received, step by step and
   whether or not the stream has terminated: the adapter never has more than [limit] elements outstanding *)
Definition req_pending (limit : N) (s : rxs) : N := if want_more s then limit else 0.

Lemma rx_step_credit limit s i :
  let s1 := fst (fst (rx_step limit s i)) in
  sumN (snd (rx_step limit s i)) + req_pending limit s1 + got s1 <= elements [i] + req_pending limit s + got s.
Proof.
  unfold rx_step, req_pending. destruct i; [destruct complete; [|destruct (N.eqb_spec (got s + 1) limit)]| | |];
    destruct (want_more s) eqn:Ew; cbn [fst snd got want_more sumN elements fold_right]; rewrite ?Ew; lia.
Qed.

Theorem rx_credit_bound limit : forall is s,
  let s' := fst (fst (rx_run limit s is)) in
  sumN (snd (rx_run limit s is)) + req_pending limit s' + got s' <= elements is + req_pending limit s + got s.
Proof.
  induction is as [|i r IH]; intro s; [apply N.le_refl|]. rewrite rx_run_cons. cbn [fst snd]. rewrite sumN_app, elements_cons.
  pose proof (rx_step_credit limit s i) as H. specialize (IH (fst (fst (rx_step limit s i)))). cbv zeta in *. lia.
Qed.

Definition delegates_all (table : list (string * string)) : bool :=
  forallb (fun m => match find (fun p => String.eqb (fst p) m) table with
                    | Some (_, target) => String.eqb target (String.append "self.delegate." m)
                    | None => false
                    end) handler_methods.

Example batching_example :
  rx_run 2 rxs_init [SNext 1 false; SNext 2 false; STask; SNext 3 false; SNext 4 true]
  = ({| got := 2; want_more := false; finished := true |}, [ONext 1; ONext 2; ONext 3; ONext 4; OCompleted], [2]).
Proof. vm_compute. reflexivity. Qed.
