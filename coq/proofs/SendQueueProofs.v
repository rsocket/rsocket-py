From Coq Require Import NArith List.
From RSV Require Import gen.GenConst lib.Bytes model.Frame model.Fragmenter model.SendQueue proofs.FragmenterProofs.
Import ListNotations.
Open Scope N_scope.

Definition on (k : N) (l : list frame) : list frame := filter (fun f => fsid f =? k) l.
Definition srcs_on (k : N) (q : squeue) : squeue := filter (fun s => s_sid s =? k) q.
Definition pending (q : squeue) (k : N) : list frame := concat (map s_frags (srcs_on k q)).

Lemma on_cons k f r : on k (f :: r) = if fsid f =? k then f :: on k r else on k r.
Proof. reflexivity. Qed.
Lemma on_app k a b : on k (a ++ b) = on k a ++ on k b.
Proof. apply filter_app. Qed.
Lemma on_same k j l : Forall (fun g => fsid g = j) l -> on k l = if j =? k then l else [].
Proof.
  induction 1 as [|x l <- _ IH]; [destruct (j =? k); reflexivity|]. rewrite on_cons, IH. destruct (fsid x =? k); reflexivity.
Qed.

Lemma pending_cons k s r : pending (s :: r) k = (if s_sid s =? k then s_frags s else []) ++ pending r k.
Proof. unfold pending, srcs_on. cbn [filter]. destruct (s_sid s =? k); reflexivity. Qed.
Lemma pending_app k a b : pending (a ++ b) k = pending a k ++ pending b k.
Proof. unfold pending, srcs_on. rewrite filter_app, map_app. apply concat_app. Qed.

Lemma pending_reinsert k s : forall q, pending (reinsert q s) k = (if s_sid s =? k then s_frags s else []) ++ pending q k.
Proof.
  induction q as [|x r IH]; cbn [reinsert]; [apply pending_cons|].
  destruct (N.eqb_spec (s_sid x) (s_sid s)) as [E|E]; [apply pending_cons|]. rewrite !pending_cons, IH.
  destruct (N.eqb_spec (s_sid s) k) as [Es|]; [|reflexivity]. destruct (N.eqb_spec (s_sid x) k); [congruence|reflexivity].
Qed.

Lemma reinsert_Forall (P : src -> Prop) s : P s -> forall q, Forall P q -> Forall P (reinsert q s).
Proof.
  intros Hs. induction 1 as [|x r Hx Hr IH]; cbn [reinsert]; [auto|]. destruct (s_sid x =? s_sid s); auto.
Qed.

Definition size_ok (size : option N) : Prop :=
  match size with Some sz => MINIMUM_FRAGMENT_SIZE_BYTES <= sz | None => True end.

Section Cfg.
  Variable size : option N.
  Variable lenreq : bool.
  Hypothesis Hsize : size_ok size.
  Notation emissions := (emissions size lenreq).
  Notation enq := (enq size lenreq).

  Lemma emissions_spec f : emissions f <> [] /\ Forall (fun g => fsid g = fsid f) (emissions f).
  Proof.
    unfold SendQueue.emissions. destruct (is_fragmentable f) eqn:Ef; [|split; [discriminate|auto]].
    destruct (frs_cut_any f size lenreq Ef Hsize) as (first & next & fgs & -> & C). split.
    - destruct (cut_first _ _ _ _ _ _ C) as (g & r & -> & _). discriminate.
    - apply Forall_map, Forall_forall. intros g _. apply mk_fsid.
  Qed.

  Definition Q (q : squeue) : Prop :=
    Forall (fun s => s_frags s <> [] /\ Forall (fun g => fsid g = s_sid s) (s_frags s)) q.

  Lemma send_step_spec qq x q' : Q qq -> send_step qq = Some (x, q') ->
    Q q' /\ pending qq (fsid x) = x :: pending q' (fsid x) /\
    forall k, k <> fsid x -> pending q' k = pending qq k.
  Proof.
    intros HQ E. unfold send_step, send_step_with in E. destruct qq as [|s r]; [discriminate|].
    inversion HQ as [|? ? [Hne Hsid] HQr]; subst.
    destruct (s_frags s) as [|y rest] eqn:Ef; [congruence|]. inversion Hsid as [|? ? Hy Hrest]; subst.
    assert (x = y /\ Q q' /\ forall k, pending q' k = (if s_sid s =? k then rest else []) ++ pending r k) as (-> & HQ' & P).
    { destruct rest as [|z rest']; injection E as <- <-; (split; [reflexivity|]).
      - split; [exact HQr|]. intro k. destruct (s_sid s =? k); reflexivity.
      - split; [|intro k; apply pending_reinsert]. apply reinsert_Forall; [split; [discriminate|exact Hrest]|exact HQr]. }
    split; [exact HQ'|]. split.
    - rewrite pending_cons, Ef, P, Hy, N.eqb_refl. reflexivity.
    - intros k Hk. rewrite pending_cons, P. destruct (N.eqb_spec (s_sid s) k); [congruence|reflexivity].
  Qed.

  Lemma enq_spec qq f : Q qq ->
    Q (enq qq f) /\ forall k, pending (enq qq f) k = pending qq k ++ (if fsid f =? k then emissions f else []).
  Proof.
    intro HQ. split.
    - apply Forall_app. split; [exact HQ|]. constructor; [exact (emissions_spec f)|constructor].
    - intro k. unfold SendQueue.enq. rewrite pending_app, pending_cons. apply f_equal, app_nil_r.
  Qed.

  Lemma prio_spec qq f : Q qq ->
    Q (enq_priority size lenreq qq f) /\
    forall k, pending (enq_priority size lenreq qq f) k = (if fsid f =? k then emissions f else []) ++ pending qq k.
  Proof. intro HQ. split; [constructor; [exact (emissions_spec f)|exact HQ]|intro k; apply pending_cons]. Qed.

  Fixpoint enqueued (ls : list qlabel) : list frame :=
    match ls with [] => [] | QEnq f :: r => f :: enqueued r | _ :: r => enqueued r end.

  Definition no_prio (ls : list qlabel) : Prop := Forall (fun l => match l with QPrio _ => False | _ => True end) ls.

  (* the quantity carried through a history: what has been written on k followed by what is still queued for k *)
  Lemma per_stream_from k : forall ls s, (forall f, In (QPrio f) ls -> fsid f <> k) -> Q (q s) ->
    let s' := fold_left (qstep_with reinsert size lenreq) ls s in
    Q (q s') /\ on k (wire s') ++ pending (q s') k =
                on k (wire s) ++ pending (q s) k ++ concat (map emissions (on k (enqueued ls))).
  Proof.
    induction ls as [|l r IH]; intros s Hn HQ; cbn [fold_left enqueued].
    - split; [exact HQ|]. cbn. rewrite app_nil_r. reflexivity.
    - specialize (fun s' => IH s' (fun f H => Hn f (or_intror H))). destruct l as [f|f|]; cbn [qstep_with].
      + destruct (enq_spec (q s) f HQ) as [HQ2 He].
        destruct (IH {| q := enq (q s) f; wire := wire s |} HQ2) as [I1 I2]. split; [exact I1|].
        rewrite I2. cbn [q SendQueue.wire]. rewrite He, on_cons.
        destruct (fsid f =? k); cbn [map concat]; rewrite <- ?app_assoc, ?app_nil_r; reflexivity.
      + destruct (prio_spec (q s) f HQ) as [HQ2 He].
        destruct (IH {| q := enq_priority size lenreq (q s) f; wire := wire s |} HQ2) as [I1 I2]. split; [exact I1|].
        rewrite I2. cbn [q SendQueue.wire]. rewrite He.
        destruct (N.eqb_spec (fsid f) k) as [E|_]; [destruct (Hn f (or_introl eq_refl) E)|reflexivity].
      + destruct (send_step_with reinsert (q s)) as [[x q']|] eqn:Es; [|apply IH; assumption].
        destruct (send_step_spec (q s) x q' HQ Es) as (HQ2 & P1 & P2).
        destruct (IH {| q := q'; wire := wire s ++ [x] |} HQ2) as [I1 I2]. split; [exact I1|].
        rewrite I2. cbn [q SendQueue.wire]. rewrite on_app, on_cons.
        destruct (N.eqb_spec (fsid x) k) as [<-|Hk].
        * rewrite P1. cbn [on filter]. rewrite <- !app_assoc. reflexivity.
        * rewrite (P2 k) by congruence. cbn [on filter]. rewrite app_nil_r. reflexivity.
  Qed.

  Theorem per_stream_off ls k : (forall f, In (QPrio f) ls -> fsid f <> k) ->
    let s := qrun size lenreq ls in
    on k (wire s) ++ pending (q s) k = concat (map emissions (on k (enqueued ls))).
  Proof. intro Hn. exact (proj2 (per_stream_from k ls {| q := []; wire := [] |} Hn (Forall_nil _))). Qed.

  Lemma no_prio_In k ls : no_prio ls -> forall f, In (QPrio f) ls -> fsid f <> k.
  Proof. intros Hn f Hin. destruct (proj1 (Forall_forall _ _) Hn _ Hin). Qed.

  Lemma prio_off_In k ls : Forall (fun l => match l with QPrio f => fsid f <> k | _ => True end) ls ->
    forall f, In (QPrio f) ls -> fsid f <> k.
  Proof. intros Hn f Hin. exact (proj1 (Forall_forall _ _) Hn _ Hin). Qed.
End Cfg.

Fixpoint answers_on (k : N) (c : cache) (fs : list frame) : list ares :=
  match fs with
  | [] => []
  | f :: r => let (c', a) := cache_append c f in
              if fsid f =? k then a :: answers_on k c' r else answers_on k c' r
  end.

(* F4, the behaviour before fix fbd3cfd: the history on which [rotate_back] breaks the per-stream order *)
Definition f4_a : frame := FPayload 1 false false false true [] (pat 1 0 100).
Definition f4_b : frame := FPayload 1 false false true false [] [].
Definition f4_run : qstate :=
  fold_left (qstep_with rotate_back (Some 64) false) [QEnq f4_a; QEnq f4_b; QSend; QSend; QSend] {| q := []; wire := [] |}.

Example interleave_example :
  let s := qrun (Some 64) false [QEnq f4_a; QEnq (FPayload 3 false false false true [] (pat 2 0 70)); QEnq f4_b; QSend; QSend; QSend; QSend; QSend] in
  map (fun g => (fsid g, ffollows g, lenN (fdata g))) (SendQueue.wire s) = [(1, true, 58); (3, true, 58); (1, false, 42); (1, false, 0); (3, false, 12)].
Proof. vm_compute. reflexivity. Qed.
