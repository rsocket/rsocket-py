(* C06, last clause: credit granted by an application (initial_request_n, Subscription.request) is transmitted to the peer
   with exactly that value.  Here: what one section queues and hands to producers; C06_network_credit (props/C06.v) follows
   it through model/Network.v with Section Quantity of NetworkProofs.v, from the application's call on one side, over the
   link, to the request(n) the producer on the other side is given. *)
From Coq Require Import NArith List Bool.
From RSV Require Import model.Frame model.Endpoint model.Network proofs.EndpointObjects proofs.EndpointProofs proofs.EndpointWire proofs.NetworkProofs.
Import ListNotations.
Open Scope N_scope.

Definition credit_of (f : frame) : option N :=
  match f with
  | FRequestStream _ _ _ n _ _ | FRequestChannel _ _ _ _ n _ _ | FRequestN _ _ n => Some n
  | _ => None
  end.

Definition pub_credits (effs : list effect) : list N :=
  flat_map (fun x => match x with XPub _ (PRequestN n) => [n] | _ => [] end) effs.

Lemma pub_credits_app a b : pub_credits (a ++ b) = pub_credits a ++ pub_credits b.
Proof. apply flat_map_app. Qed.

Lemma credit_on_wire f : credit_of (on_wire f) = credit_of f.
Proof. destruct f; reflexivity. Qed.

(* the credit a call on object o grants the peer: request(n), and the recorded initial request-n when a stream or
   channel requester subscribes *)
Definition granted (o : hobj) (i : input) : list N :=
  match i with
  | OnLocal (LRequestN _ n) => [n]
  | OnLocal (LSubscribe _ _ _ _) => match o_kind o with KRSReq | KChanReq => [o_n o] | _ => [] end
  | _ => []
  end.

Lemma obj_step_granted oid o i : pmap credit_of (sent_frames (c_effs (obj_step oid o i))) = granted o i.
Proof. obj_cases o i; unfold granted; cbn; use_eqs; reflexivity. Qed.

Theorem local_credit u e l : is_recv l = false ->
  pmap credit_of (sent_frames (snd (ep_step u e l))) = [] \/
  (exists oid n, l = LRequestN oid n /\ pmap credit_of (sent_frames (snd (ep_step u e l))) = [n]) \/
  (exists oid hs md d o, l = LSubscribe oid hs md d /\ nth_error (objs e) oid = Some o /\
                         pmap credit_of (sent_frames (snd (ep_step u e l))) = [o_n o]).
Proof.
  intro Hl. destruct (local_step_effs u e l) as [->|[(oid & o & Hs & Ho & ->)|Hs]]; [left; reflexivity| |].
  - rewrite (obj_step_granted oid o (OnLocal l)).
    destruct l; try discriminate Hs; injection Hs as ->; cbn [granted]; try (left; reflexivity).
    + destruct (o_kind o); try (left; reflexivity); right; right; exists oid, has_sub, md, d, o; auto.
    + right. left. exists oid, n. auto.
  - destruct l; try discriminate; cbn [ep_step]; try (left; exact (f_equal (pmap credit_of) (close_sends_nothing u e)));
      destruct (alloc e) as [[sid|] e1]; left; reflexivity.
Qed.

Lemma obj_step_credits oid o i : at_most (brought credit_of i) (pub_credits (c_effs (obj_step oid o i))).
Proof. unfold at_most. obj_cases o i; cbn; first [left; reflexivity|right; eexists; split; reflexivity]. Qed.

Lemma call_credits f : at_most (credit_of f) (pub_credits (handler_call f)).
Proof. left. destruct f; reflexivity. Qed.

Fixpoint credits_got (tr : list nevent) (s : side) (k : N) : list N :=
  match tr with
  | [] => []
  | EvDeliver s' f effs :: r => (if side_eqb s' s && (fsid f =? k) then pub_credits effs else []) ++ credits_got r s k
  | EvLocal s' _ effs :: r => (if side_eqb s' s then pub_credits effs else []) ++ credits_got r s k
  end.

Lemma credits_got_app a b s k : credits_got (a ++ b) s k = credits_got a s k ++ credits_got b s k.
Proof. exact (seen_app _ a b s k). Qed.
