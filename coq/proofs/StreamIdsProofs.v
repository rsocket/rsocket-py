From Coq Require Import NArith List Bool Lia.
From RSV Require Import gen.GenConst lib.Iter model.StreamIds.
Import ListNotations.
Open Scope N_scope.

(* the generated constants have the shape the arithmetic relies on *)
Lemma max_stream_id_is_ones : MAX_STREAM_ID = N.ones 31.
Proof. reflexivity. Qed.
Lemma connection_stream_id_is_zero : CONNECTION_STREAM_ID = 0.
Proof. reflexivity. Qed.
Lemma first_ids : CLIENT_FIRST_STREAM_ID = 1 /\ SERVER_FIRST_STREAM_ID = 2.
Proof. split; reflexivity. Qed.

Lemma mem_filter p x l : mem x (filter p l) = p x && mem x l.
Proof.
  unfold mem. induction l as [|y l IH]; cbn [filter existsb]; [rewrite andb_false_r; reflexivity|].
  destruct (p y) eqn:E; cbn [existsb]; rewrite IH; destruct (N.eqb_spec x y) as [->|]; rewrite ?E; reflexivity.
Qed.

Lemma id_ok_false act c : id_ok act c = false <-> c = 0 \/ mem c act = true.
Proof. unfold id_ok. rewrite negb_false_iff, orb_true_iff, N.eqb_eq. reflexivity. Qed.

Lemma id_ok_true act c : id_ok act c = true <-> c <> 0 /\ mem c act = false.
Proof. unfold id_ok. rewrite negb_true_iff, orb_false_iff, N.eqb_neq. reflexivity. Qed.

Lemma pow2_nz m : 2 ^ m <> 0.
Proof. apply N.pow_nonzero. discriminate. Qed.

Lemma pow2_half m : 1 <= m -> 2 ^ m = 2 * 2 ^ (m - 1).
Proof. intro Hm. rewrite <- N.pow_succ_r', N.sub_1_r, N.succ_pred by lia. reflexivity. Qed.

Lemma mod_parity m x : 1 <= m -> (x mod 2 ^ m) mod 2 = x mod 2.
Proof.
  intro Hm. rewrite (pow2_half m Hm), N.mod_mul_r, (N.mul_comm 2), N.mod_add, N.mod_mod
    by (apply pow2_nz || discriminate). reflexivity.
Qed.

Lemma incr_ones m c : incr (N.ones m) c = (c + 2) mod 2 ^ m.
Proof. apply N.land_ones. Qed.

Lemma iter_incr m c k : iter_nat (incr (N.ones m)) (S k) c = (c + 2 * N.of_nat (S k)) mod 2 ^ m.
Proof.
  induction k as [|k IH]; [apply incr_ones|].
  rewrite iter_nat_succ_r, IH, incr_ones, N.add_mod_idemp_l by apply pow2_nz. f_equal. lia.
Qed.

Lemma attempts_ones m : 1 <= m -> Pos.to_nat (attempts (N.ones m)) = N.to_nat (2 ^ (m - 1)).
Proof.
  intro Hm. apply (f_equal N.to_nat (x := N.pos _)). unfold attempts. rewrite N.succ_pos_spec. change 2 with (2 ^ 1) at 1.
  rewrite N.ones_div_pow2, N.ones_equiv, N.succ_pred by (assumption || apply pow2_nz). reflexivity.
Qed.

Section Width.
  Variable m : N.
  Hypothesis m_pos : 1 <= m.
  Let H := 2 ^ (m - 1).
  Let M := 2 ^ m.

  (* Write x = 2a + p and c = 2(Hq + b) + p with a, b < H: a - b steps (or a + H - b, once round) lead from c to
     M q + x (or M (q + 1) + x). *)
  Lemma reach c x : x < M -> x mod 2 = c mod 2 ->
    exists k, 1 <= k <= H /\ (c + 2 * k) mod M = x.
  Proof.
    assert (M = 2 * H) as -> by apply (pow2_half m m_pos). assert (H <> 0) as HH by apply pow2_nz.
    intros Hx Hp.
    pose proof (N.div_mod x 2) as Ex. pose proof (N.div_mod c 2) as Ec.
    pose proof (N.div_mod (c / 2) H HH) as Eb. pose proof (N.mod_lt (c / 2) H HH) as Hb.
    pose proof (N.mod_lt c 2) as Hp2. rewrite Hp in Ex.
    (* the quotients and remainders become variables: lia is given no division *)
    revert Ex Ec Eb Hb Hp2. generalize (x / 2) (c mod 2) (c / 2) (c / 2 / H) ((c / 2) mod H).
    intros a p b0 q b Ex Ec Eb Hb Hp2. specialize (Ex ltac:(discriminate)). specialize (Ec ltac:(discriminate)).
    destruct (N.ltb_spec b a).
    - exists (a - b). split; [lia|]. symmetry. apply (N.mod_unique _ _ q); lia.
    - exists (a + H - b). split; [lia|]. symmetry. apply (N.mod_unique _ _ (q + 1)); lia.
  Qed.

  Variable s : sc.
  Hypothesis Hmax : maxid s = N.ones m.

  (* the id examined at the k-th attempt *)
  Definition kth (k : N) : N := (cur s + 2 * k) mod M.

  Lemma kth_lt k : kth k < M.
  Proof. apply N.mod_lt, pow2_nz. Qed.

  Lemma kth_parity k : kth k mod 2 = cur s mod 2.
  Proof. unfold kth, M. rewrite (mod_parity m _ m_pos), N.mul_comm. apply N.mod_add. discriminate. Qed.

  Lemma iter_kth k : (1 <= k)%nat -> iter_nat (incr (maxid s)) k (cur s) = kth (N.of_nat k).
  Proof. intro Hk. destruct k; [lia|]. rewrite Hmax. apply iter_incr. Qed.

  (* Everything else about [allocate] follows from this and the arithmetic above. *)
  Lemma allocate_spec : exists k, 1 <= k <= H /\
    allocate s = ((if id_ok (active s) (kth k) then Some (kth k) else None),
                  {| cur := kth k; active := active s; maxid := maxid s |}) /\
    (forall j, 1 <= j < k -> id_ok (active s) (kth j) = false) /\
    (id_ok (active s) (kth k) = false -> k = H).
  Proof.
    unfold allocate.
    destruct (find_pos_spec (incr (maxid s)) (id_ok (active s)) (attempts (maxid s)) (cur s)) as (k & Hk & -> & Hmin & Hlast).
    rewrite Hmax, (attempts_ones m m_pos), <- Hmax in *. rewrite iter_kth in * by lia.
    exists (N.of_nat k). split; [lia|]. split; [destruct (id_ok _ _); reflexivity|]. split.
    - intros j Hj. rewrite <- (N2Nat.id j), <- iter_kth by lia. apply Hmin. lia.
    - intro E. rewrite (Hlast E). apply N2Nat.id.
  Qed.

  Theorem allocate_none_iff :
    fst (allocate s) = None <->
    (forall x, 0 < x < M -> x mod 2 = cur s mod 2 -> mem x (active s) = true).
  Proof.
    destruct allocate_spec as (k & Hk & -> & Hmin & Hlast). cbn [fst]. split.
    - destruct (id_ok (active s) (kth k)) eqn:Hok; [discriminate|]. intros _ x Hx Hp.
      destruct (reach (cur s) x (proj2 Hx) Hp) as (j & Hj & <-). fold (kth j) in *.
      assert (id_ok (active s) (kth j) = false) as Hf.
      { destruct (N.eq_dec j k) as [->|]; [exact Hok|]. apply Hmin. rewrite (Hlast eq_refl). lia. }
      apply id_ok_false in Hf. destruct Hf as [Hf|Hf]; [lia|exact Hf].
    - intro Hall. destruct (id_ok (active s) (kth k)) eqn:Hok; [|reflexivity].
      apply id_ok_true in Hok. destruct Hok as [Hz Hm].
      rewrite Hall in Hm; [discriminate| |apply kth_parity]. pose proof (kth_lt k). lia.
  Qed.
End Width.

Fixpoint allocs (s : sc) (ops : list op) : list (N * list N) :=
  match ops with
  | [] => []
  | o :: r =>
    let (x, s') := step s o in
    match x with
    | RId id => (id, active s) :: allocs s' r
    | _ => allocs s' r
    end
  end.

Definition Inv (m par : N) (s : sc) : Prop :=
  maxid s = N.ones m /\ cur s mod 2 = par mod 2.

(* what C13 asks of an id handed out while [act] was the active set *)
Definition fresh_id (m parity : N) (act : list N) (id : N) : Prop :=
  id <> 0 /\ id < 2 ^ m /\ id mod 2 = parity mod 2 /\ mem id act = false.

Lemma allocate_inv m par s : 1 <= m -> Inv m par s ->
  Inv m par (snd (allocate s)) /\ forall id, fst (allocate s) = Some id -> fresh_id m par (active s) id.
Proof.
  intros Hm (Hmax & Hp). destruct (allocate_spec m Hm s Hmax) as (k & _ & -> & _). cbn [fst snd]. split.
  - split; [exact Hmax|]. cbn [cur]. rewrite kth_parity; assumption.
  - destruct (id_ok (active s) (kth m s k)) eqn:Hok; [|discriminate]. intros id [= <-].
    apply id_ok_true in Hok. destruct Hok as [Hz Hf].
    split; [exact Hz|]. split; [apply kth_lt|]. split; [rewrite kth_parity; assumption|exact Hf].
Qed.

Lemma register_inv m par s id : Inv m par s -> Inv m par (snd (register s id)).
Proof. unfold register. destruct (_ || _); intro HI; exact HI. Qed.

Lemma step_inv m par s o : 1 <= m -> Inv m par s ->
  Inv m par (snd (step s o)) /\ forall id, fst (step s o) = RId id -> fresh_id m par (active s) id.
Proof.
  intros Hm HI. destruct (allocate_inv m par s Hm HI) as [HA Hid]. unfold step. destruct o as [| |i|i].
  - destruct (allocate s) as [[id|] s']; cbn [fst snd] in *; (split; [exact HA|]).
    + intros ? [= <-]. apply Hid. reflexivity.
    + discriminate.
  - destruct (allocate s) as [[id|] s']; cbn [fst snd] in *; split; try exact HA; try discriminate.
    + apply register_inv, HA.
    + intros ? [= <-]. apply Hid. reflexivity.
  - pose proof (register_inv m par s i HI). destruct (register s i) as [[] s']; split; (assumption || discriminate).
  - split; [exact HI|discriminate].
Qed.

Theorem history_ids m par s ops : 1 <= m -> Inv m par s ->
  Forall (fun '(id, act) => fresh_id m par act id) (allocs s ops).
Proof.
  intros Hm. revert s. induction ops as [|o r IH]; intros s HI; cbn [allocs]; [constructor|].
  destruct (step_inv m par s o Hm HI) as [HI' Hid]. destruct (step s o) as [[id| | |] s']; cbn [fst snd] in *;
    try (apply IH; exact HI').
  constructor; [apply Hid; reflexivity|apply IH; exact HI'].
Qed.

Lemma init_inv m first mx : mx = N.ones m -> (first = 1 \/ first = 2) -> Inv m first (sc_init first mx).
Proof.
  intros Hmx Hf. unfold Inv, sc_init. cbn [maxid cur]. split; [exact Hmx|].
  destruct Hf; subst first; vm_compute; reflexivity.
Qed.

Theorem allocs_history :
  forall m first ops, 1 <= m -> first = 1 \/ first = 2 ->
    Forall (fun '(id, act) => id <> 0 /\ id < 2 ^ m /\ id mod 2 = first mod 2 /\ mem id act = false)
           (allocs (sc_init first (N.ones m)) ops).
Proof.
  intros m first ops Hm Hf. apply history_ids; [exact Hm|apply init_inv; [reflexivity|assumption]].
Qed.

Lemma finish_frees s id : mem id (active (finish s id)) = false.
Proof. cbn [finish active]. rewrite mem_filter, N.eqb_refl. reflexivity. Qed.

Lemma finish_keeps s id x : x <> id -> mem x (active (finish s id)) = mem x (active s).
Proof. intro Hne. cbn [finish active]. rewrite mem_filter. apply N.eqb_neq in Hne. rewrite Hne. reflexivity. Qed.

(* non-vacuity: a wrapped, partly occupied reduced id space (the suite's m = 7 case) *)
Example wrap_example :
  fst (allocate {| cur := 125; active := [127; 1; 3]; maxid := N.ones 7 |}) = Some 5.
Proof. vm_compute. reflexivity. Qed.
Example full_example :
  fst (allocate {| cur := 3; active := [1; 3; 5; 7]; maxid := N.ones 3 |}) = None.
Proof. vm_compute. reflexivity. Qed.
Example real_width_example :
  fst (allocate {| cur := MAX_STREAM_ID; active := [1]; maxid := MAX_STREAM_ID |}) = Some 3.
Proof. vm_compute. reflexivity. Qed.
