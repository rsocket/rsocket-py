From Coq Require Import NArith List Lia.
From RSV Require Import lib.Iter model.Publisher.
Import ListNotations.
Open Scope N_scope.

Definition sumN (l : list N) : N := fold_right N.add 0 l.
Definition lenE (l : list event) : N := N.of_nat (length l).

Lemma sumN_app a b : sumN (a ++ b) = sumN a + sumN b.
Proof. unfold sumN. induction a as [|x a IH]; [reflexivity|]. cbn [app fold_right]. rewrite IH. lia. Qed.
Lemma lenE_snoc l e : lenE (l ++ [e]) = lenE l + 1.
Proof. unfold lenE. rewrite app_length. cbn [length]. lia. Qed.

Lemma firstnN_prefix a b : forall n, lenE a <= n -> b = [] \/ n = lenE a -> firstnN (a ++ b) n = a.
Proof.
  unfold lenE. induction a as [|x a IH]; intros n Hn Hb; cbn [app].
  - destruct Hb as [->| ->]; [reflexivity|]. destruct b; reflexivity.
  - cbn [firstnN length] in *. destruct (N.eqb_spec n 0); [lia|]. rewrite IH; [reflexivity|lia|]. destruct Hb as [Hb|Hb]; [left; exact Hb|right; lia].
Qed.

Definition wf_events (evs : list event) : Prop :=
  exists init t, evs = init ++ [t] /\ terminal t = true /\ Forall (fun e => terminal e = false) init.

Lemma gen_events_wf src : wf_events (gen_events src).
Proof.
  induction src as [|[p c] r (init & t & E & Ht & Hi)]; cbn [gen_events].
  - exists [], (ENext 0 true). repeat split; constructor.
  - destruct c.
    + exists [], (ENext p true). repeat split; constructor.
    + exists (ENext p false :: init), t. rewrite E. repeat split; auto.
Qed.

Lemma obs_events_wf vs fails : wf_events (obs_events vs fails).
Proof.
  exists (map (fun v => ENext v false) vs), (if fails then EError else EComplete). repeat split.
  - destruct fails; reflexivity.
  - apply Forall_map, Forall_forall. intros v _. reflexivity.
Qed.

Definition tail_ok (l : list event) : Prop := l = [] \/ wf_events l.

Lemma tail_ok_cons e r : wf_events (e :: r) -> (terminal e = true /\ r = []) \/ (terminal e = false /\ wf_events r).
Proof.
  intros (init & t & E & Ht & Hi). destruct init as [|x init].
  - cbn in E. injection E as -> ->. left. split; [exact Ht|reflexivity].
  - cbn in E. injection E as -> ->. inversion Hi; subst. right. split; [assumption|]. exists init, t. auto.
Qed.

(* [requested] is a fold over the labels with this step: state and credit are run side by side *)
Definition credit_step (R : N) (l : plabel) : N := match l with PRequest n => R + n | _ => R end.

Lemma lockstep (P : pst -> N -> Prop) : (forall s R l, P s R -> P (pstep s l) (credit_step R l)) ->
  forall ls s R, P s R -> P (fold_left pstep ls s) (fold_left credit_step ls R).
Proof. intros Hs. induction ls as [|l r IH]; intros s R H; [exact H|]. apply IH, Hs, H. Qed.

(* Safety needs nothing of the event list: what has been produced is a prefix of it, paid for by the credit so far. *)
Definition Safe (evs : list event) (s : pst) (R : N) : Prop :=
  delivered s ++ outq s ++ remaining s = evs /\ lenE (delivered s) + lenE (outq s) + batch s + sumN (reqq s) <= R.

Lemma safe_step evs s R l : Safe evs s R -> Safe evs (pstep s l) (credit_step R l).
Proof.
  intros [Ho Hle]. destruct l as [n| | |]; cbn [pstep credit_step].
  - destruct (cancelled s); split; cbn [delivered outq remaining reqq batch]; rewrite ?sumN_app; cbn [sumN fold_right]; auto; lia.
  - destruct (orb _ _); [split; assumption|]. destruct (N.eqb_spec (batch s) 0) as [Eb|Eb].
    + destruct (reqq s) as [|n r] eqn:Eq; [split; [|rewrite Eq]; assumption|]. cbn [sumN fold_right] in Hle. fold (sumN r) in Hle.
      split; cbn [delivered outq remaining reqq batch]; [assumption|lia].
    + destruct (remaining s) as [|e r] eqn:Er; [split; [rewrite Er|]; assumption|].
      split; cbn [delivered outq remaining reqq batch]; [rewrite <- Ho, <- !app_assoc; reflexivity|].
      rewrite lenE_snoc. destruct (terminal e); lia.
  - destruct (cancelled s); [split; assumption|]. destruct (outq s) as [|e r] eqn:Eo; [split; rewrite ?Eo; assumption|].
    assert (lenE (e :: r) = 1 + lenE r) as Hl by (unfold lenE; cbn [length]; lia).
    split; cbn [delivered outq remaining reqq batch]; [rewrite <- Ho, <- !app_assoc; reflexivity|rewrite lenE_snoc; lia].
  - split; assumption.
Qed.

Lemma safe_prun evs ls : Safe evs (prun evs ls) (requested ls).
Proof. apply (lockstep (Safe evs) (safe_step evs)). split; [reflexivity|apply N.le_refl]. Qed.

Theorem credit_safety evs ls :
  let s := prun evs ls in
  lenE (delivered s) + lenE (outq s) <= requested ls /\ exists rest, evs = delivered s ++ rest.
Proof. cbv zeta. destruct (safe_prun evs ls) as [Ho Hle]. split; [lia|]. eexists. symmetry. exact Ho. Qed.

(* Exactness: with a well-formed event list a live producer has used its credit up exactly and has more to produce. *)
Record Exact (s : pst) (R : N) : Prop := {
  x_eq : cancelled s = false -> producing s = true ->
         lenE (delivered s) + lenE (outq s) + batch s + sumN (reqq s) = R;
  x_done : cancelled s = false -> producing s = false -> remaining s = [];
  x_more : cancelled s = false -> producing s = true -> wf_events (remaining s)
}.

Lemma exact_step s R l : Exact s R -> Exact (pstep s l) (credit_step R l).
Proof.
  intros HX. pose proof HX as [Heq Hd Hm]. destruct l as [n| | |]; cbn [pstep credit_step].
  - (* after cancel() the credit no longer matters *)
    destruct (cancelled s) eqn:Ec; [constructor; rewrite Ec; discriminate|].
    constructor; cbn [delivered outq remaining reqq batch producing cancelled]; auto.
    intros _ Hp. rewrite sumN_app. cbn. specialize (Heq eq_refl Hp). lia.
  - destruct (cancelled s) eqn:Ec; cbn [orb]; [exact HX|].
    destruct (producing s) eqn:Ep; cbn [negb]; [|exact HX].
    specialize (Heq eq_refl eq_refl). specialize (Hm eq_refl eq_refl).
    destruct (N.eqb_spec (batch s) 0) as [Eb|Eb].
    + destruct (reqq s) as [|n r] eqn:Eq; [exact HX|]. cbn [sumN fold_right] in Heq. fold (sumN r) in *.
      constructor; cbn [delivered outq remaining reqq batch producing cancelled]; auto; lia.
    + destruct (remaining s) as [|e r] eqn:Er; [destruct Hm as ([|] & t & E & _); discriminate|].
      (* a terminal event is the last one (tail_ok_cons): the producer stops with nothing left; otherwise one credit moves
         from batch to outq *)
      destruct (tail_ok_cons e r Hm) as [[Ht ->]|[Ht Hr]]; rewrite Ht; cbn [negb];
        constructor; cbn [delivered outq remaining reqq batch producing cancelled]; auto; try discriminate.
      intros _ _. rewrite lenE_snoc. lia.
  - destruct (cancelled s) eqn:Ec; [exact HX|].
    destruct (outq s) as [|e r] eqn:Eo; [exact HX|].
    assert (lenE (e :: r) = 1 + lenE r) as Hl by (unfold lenE; cbn [length]; lia).
    constructor; cbn [delivered outq remaining reqq batch producing cancelled]; auto.
    intros _ Hp. specialize (Heq eq_refl Hp). rewrite lenE_snoc. lia.
  - constructor; cbn [delivered outq remaining reqq batch producing cancelled]; auto; discriminate.
Qed.

Theorem settled_delivery evs ls : wf_events evs ->
  let s := prun evs ls in
  quiescent s = true -> cancelled s = false -> delivered s = settled evs (requested ls).
Proof.
  intro Hwf. cbv zeta. destruct (safe_prun evs ls) as [Ho Hle].
  assert (Exact (prun evs ls) (requested ls)) as [Heq Hd _]
    by (apply (lockstep Exact exact_step); constructor; cbn; auto; discriminate).
  set (s := prun evs ls) in *. unfold quiescent, settled. intros Hq Hc. rewrite Hc in Hq. cbn [orb] in Hq.
  destruct (outq s); [cbn [is_nil_ev andb app] in *|discriminate]. rewrite <- Ho.
  symmetry. apply firstnN_prefix; [unfold lenE in *; cbn [length] in Hle; lia|].
  destruct (producing s); [right|left; exact (Hd Hc eq_refl)]. specialize (Heq Hc eq_refl). cbn [negb orb] in Hq.
  destruct (N.eqb_spec (batch s) 0), (reqq s); try discriminate. unfold lenE in *. cbn in Heq. lia.
Qed.

Lemma cancelled_frozen s ls : cancelled s = true ->
  let s' := fold_left pstep ls s in
  delivered s' = delivered s /\ remaining s' = remaining s /\ outq s' = outq s /\ cancelled s' = true.
Proof.
  intro Hc. apply fold_left_inv; [|auto]. intros a l (E1 & E2 & E3 & Ha).
  destruct l; cbn [pstep]; rewrite ?Ha; cbn; auto.
Qed.

Theorem cancel_silences : forall ls s, cancelled s = true ->
  delivered (fold_left pstep ls s) = delivered s /\ cancelled (fold_left pstep ls s) = true.
Proof. intros ls s Hc. destruct (cancelled_frozen s ls Hc) as (A & _ & _ & D). auto. Qed.

Example generator_example :
  delivered (prun (gen_events [(1, false); (2, false); (3, false)])
                  [PRequest 2; PNStep; PNStep; PPStep; PNStep; PPStep; PNStep; PRequest 5; PNStep; PNStep; PNStep; PPStep; PPStep; PNStep])
  = [ENext 1 false; ENext 2 false; ENext 3 false; ENext 0 true].
Proof. vm_compute. reflexivity. Qed.
