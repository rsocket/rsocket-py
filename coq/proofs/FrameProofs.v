From Coq Require Import NArith List Bool Lia Strings.Byte.
From RSV Require Import gen.GenConst lib.Bytes model.Frame.
Import ListNotations.
Open Scope N_scope.

Lemma gen_masks : MASK_31_BITS = N.ones 31 /\ MASK_63_BITS = N.ones 63 /\ HEADER_LENGTH = 6.
Proof. repeat split; reflexivity. Qed.

Lemma land_mask31 v : v < 2 ^ 31 -> N.land v MASK_31_BITS = v.
Proof. intro H. destruct gen_masks as (-> & _). rewrite N.land_ones. apply N.mod_small. exact H. Qed.

Lemma land_mask63 v : v < 2 ^ 63 -> N.land v MASK_63_BITS = v.
Proof. intro H. destruct gen_masks as (_ & -> & _). rewrite N.land_ones. apply N.mod_small. exact H. Qed.

Lemma lor_shiftl_add a b n : b < 2 ^ n -> N.lor (N.shiftl a n) b = a * 2 ^ n + b.
Proof.
  intro H.
  (* the shifted a has no bit below n, b none from n on: or is xor is addition without carry *)
  assert (N.land (N.shiftl a n) b = 0) as D.
  { apply N.bits_inj. intro i. rewrite N.land_spec, N.bits_0. destruct (N.ltb_spec i n) as [L|L].
    - rewrite N.shiftl_spec_low by exact L. reflexivity.
    - rewrite <- (N.mod_small b (2 ^ n)) by exact H. rewrite N.mod_pow2_bits_high by exact L. apply andb_false_r. }
  rewrite <- N.shiftl_mul_pow2, <- N.lxor_lor, <- N.add_nocarry_lxor by exact D. reflexivity.
Qed.

Lemma word_roundtrip ty flags : ty < 64 -> flags < 1024 ->
  exists b4 b5, hdr_word ty flags = [b4; b5] /\ parse_word b4 b5 = (ty, flags).
Proof.
  intros Ht Hf. eexists. eexists. split; [reflexivity|].
  unfold parse_word. rewrite !to_N_byte_of_N.
  change 255 with (N.ones 8). change 3 with (N.ones 2). rewrite !N.land_ones, !N.shiftr_div_pow2.
  rewrite (N.lor_comm (_ mod _)), !lor_shiftl_add; change (2 ^ 2) with 4; change (2 ^ 8) with 256; try lia.
  f_equal; lia.
Qed.

Definition bit7 (f : frame) : bool :=
  match f with
  | FSetup _ _ _ _ _ _ _ resume _ _ _ _ => match resume with Some _ => true | None => false end
  | FKeepalive _ _ r _ _ => r
  | FRequestResponse _ _ fo _ _ | FRequestFnf _ _ fo _ _ | FRequestStream _ _ fo _ _ _
  | FRequestChannel _ _ fo _ _ _ _ | FPayload _ _ fo _ _ _ _ => fo
  | _ => false
  end.
Definition bit6 (f : frame) : bool :=
  match f with
  | FSetup _ _ lease _ _ _ _ _ _ _ _ _ => lease
  | FRequestChannel _ _ _ co _ _ _ | FPayload _ _ _ co _ _ _ => co
  | _ => false
  end.
Definition bit5 (f : frame) : bool :=
  match f with FPayload _ _ _ _ nx md d => nx || has_content md d | _ => false end.

Lemma flags_spec f :
  all_flags f < 1024 /\
  flag_set (all_flags f) FLAG_IGNORE_BIT = fign f /\
  flag_set (all_flags f) FLAG_METADATA_BIT = negb (is_nil (fmd f)) /\
  flag_set (all_flags f) FLAG_FOLLOWS_BIT = bit7 f /\
  flag_set (all_flags f) FLAG_COMPLETE_BIT = bit6 f /\
  flag_set (all_flags f) FLAG_NEXT_BIT = bit5 f.
Proof.
  destruct f; unfold all_flags, tflags, bit7, bit6, bit5, has_content; cbn [fign fmd];
    try (destruct resume as [[? ?]|]);
    repeat match goal with |- context [is_nil ?l] => generalize (is_nil l); intro end;
    repeat match goal with b : bool |- _ => destruct b end;
    vm_compute; repeat split; reflexivity.
Qed.

Lemma is_nil_false_cons (l : bytes) : is_nil l = false -> l <> [].
Proof. destruct l; [discriminate|discriminate]. Qed.

(* Each parser of decode_body, run on what the matching writer of [middle] / [encode] produced followed by anything,
   hands exactly the written value and the rest to its continuation.  Rewriting with these (set [enc]) is decoding
   an encoding field by field. *)
Lemma bind_get_be {A} k v rest (K : N -> bytes -> A) dflt : v < 256 ^ N.of_nat k ->
  bind (get_be k (be k v ++ rest)) K dflt = K v rest.
Proof. intro H. rewrite get_be_app by exact H. reflexivity. Qed.
Lemma bind_get_be_end {A} k v (K : N -> bytes -> A) dflt : v < 256 ^ N.of_nat k ->
  bind (get_be k (be k v)) K dflt = K v [].
Proof. rewrite <- (app_nil_r (be k v)) at 1. apply bind_get_be. Qed.

Lemma parse_md_data_enc flags md d k :
  flag_set flags FLAG_METADATA_BIT = negb (is_nil md) -> lenN md < 2 ^ 24 ->
  parse_md_data flags ((if is_nil md then [] else be 3 (lenN md)) ++ md ++ d) k = BOk (k md d).
Proof.
  intros Hf Hl. unfold parse_md_data. rewrite Hf.
  destruct (is_nil md) eqn:E; cbn [negb].
  - destruct md; [reflexivity|discriminate].
  - rewrite bind_get_be by exact Hl. rewrite takeN_app_exact, dropN_app_exact. reflexivity.
Qed.

Lemma unpack_string_enc s rest k : lenN s < 128 ->
  unpack_string (pack_string s ++ rest) k = k s rest.
Proof.
  intro H. unfold unpack_string, pack_string. cbn [app].
  rewrite to_N_byte_of_N. rewrite N.mod_small by lia.
  destruct (N.leb_spec 128 (lenN s)) as [H'|_]; [lia|].
  rewrite takeN_app_exact, dropN_app_exact. reflexivity.
Qed.

Lemma parse_position_be bk v : v < 2 ^ 63 -> parse_position bk (be 8 v) = Some v.
Proof.
  intro H. assert (v < 256 ^ N.of_nat 8) as H8 by (change (256 ^ N.of_nat 8) with (2 ^ 64); lia).
  destruct bk; unfold parse_position; rewrite be_length; cbn [Nat.eqb Nat.ltb Nat.leb].
  - rewrite dec_be_small by exact H8. rewrite land_mask63 by exact H. reflexivity.
  - rewrite <- (be_length 8 v) at 1. rewrite firstn_all.
    rewrite dec_be_small by exact H8. rewrite land_mask63 by exact H. reflexivity.
Qed.

Lemma takeN_be8_end v : takeN (be 8 v) 8 = be 8 v.
Proof. apply takeN_all. rewrite lenN_be. apply N.le_refl. Qed.

Lemma parse_sid_be bk sid : sid < 2 ^ 31 -> parse_sid bk (dec (be 4 sid)) = sid.
Proof.
  intro H. rewrite dec_be_small by (change (256 ^ N.of_nat 4) with (2 ^ 32); lia).
  destruct bk; cbn [parse_sid]; [reflexivity|apply land_mask31; exact H].
Qed.

#[local] Hint Rewrite @bind_get_be @bind_get_be_end using lia : enc.
#[local] Hint Rewrite parse_md_data_enc unpack_string_enc parse_position_be land_mask31 land_mask63 using assumption : enc.
#[local] Hint Rewrite takeN_be8_end takeN_app_exact dropN_app_exact app_nil_r : enc.

Lemma decode_header bk sid ty flags body : sid < 2 ^ 31 -> ty < 64 -> flags < 1024 ->
  decode bk (mk_header sid ty flags ++ body) =
  if negb (existsb (N.eqb ty) frame_class_ids) then DInvalid
  else match decode_body bk sid ty flags body with
       | BOk f => if to_ignore f then DIgnored else DOk f
       | BRaise => if flag_set flags FLAG_IGNORE_BIT then DIgnored else DInvalid
       | BUnmodelled => DUnmodelled
       end.
Proof.
  intros Hs Ht Hf. destruct (word_roundtrip ty flags Ht Hf) as (b4 & b5 & Hw & Hp).
  unfold mk_header. rewrite Hw.
  assert (exists s0 s1 s2 s3, be 4 sid = [s0; s1; s2; s3]) as (s0 & s1 & s2 & s3 & Hb).
  { cbn [be app]. repeat eexists. }
  pose proof (parse_sid_be bk sid Hs) as Hsid. rewrite Hb in *.
  cbn [app decode]. rewrite Hsid, Hp. reflexivity.
Qed.

(* breaks the boolean conjunction [wf f = true] in the context into its comparisons, as propositions *)
Ltac wf_split :=
  repeat match goal with
         | H : (_ && _) = true |- _ => apply andb_true_iff in H; destruct H
         | H : (_ <? _) = true |- _ => apply N.ltb_lt in H
         | H : (_ =? _) = true |- _ => apply N.eqb_eq in H
         end.

(* decides the tests of decode_body on the (constant) frame type and reduces the matches of the goal ([cbv iota]) *)
Ltac ty_tests :=
  repeat match goal with
         | |- context [N.eqb ?a ?b] =>
             is_const a; is_const b;
             first [change (N.eqb a b) with false | change (N.eqb a b) with true]
         end; cbv iota.

Lemma error_codes_fit code : existsb (N.eqb code) error_code_ids = true -> code < 2 ^ 32.
Proof.
  intro H. apply existsb_exists in H. destruct H as (x & Hin & Hx). apply N.eqb_eq in Hx. subst x.
  cbn in Hin. repeat (destruct Hin as [<-|Hin]; [reflexivity|]). destruct Hin.
Qed.

(* The flag tests are settled first and their equations cleared (Hm stays: [parse_md_data_enc] asks for it): lia decides
   the range conditions of the field lemmas, and every boolean equation it finds in the context costs it a translation. *)
Lemma decode_body_encode bk f : wf f = true ->
  decode_body bk (fsid f) (ftype f) (all_flags f) (middle f ++ md_len_field f ++ fmd f ++ body_data f) = BOk (norm f).
Proof.
  intro W. destruct (flags_spec f) as (_ & Hi & Hm & H7 & H6 & H5).
  unfold md_len_field, body_data, wf, decode_body in *.
  destruct f; cbn [ftype fsid fmd fdata md_only middle norm] in *; ty_tests;
    rewrite Hi, ?H7, ?H6, ?H5; clear Hi H7 H6 H5; cbn [fign bit7 bit6 bit5]; wf_split;
    (* ERROR: a code of the table fits its 32-bit field *)
    try match goal with H : existsb _ _ = true |- _ => pose proof (error_codes_fit _ H) end;
    (* SETUP: with and without resume token *)
    try match goal with r : option (N * bytes) |- _ => destruct r as [[tl tok]|]; wf_split; subst end;
    (* LEASE, METADATA_PUSH: metadata to the end of the frame, no length field *)
    try match goal with m : bytes |- context [if is_nil ?m then [] else []] => destruct m end;
    rewrite <- ?app_assoc; cbn [app is_nil]; autorewrite with enc; rewrite ?Hm;
    try match goal with H : existsb _ _ = true |- _ => rewrite H end; reflexivity.
Qed.

Theorem decode_encode bk f : wf f = true -> decode bk (encode f) = DOk (norm f).
Proof.
  intro W. unfold encode, prefix. rewrite <- ?app_assoc.
  assert (fsid f < 2 ^ 31) as Hsid by (unfold wf in W; wf_split; assumption).
  rewrite decode_header; [|exact Hsid| |apply flags_spec].
  2:{ destruct f; reflexivity. }
  assert (existsb (N.eqb (ftype f)) frame_class_ids = true) as -> by (destruct f; reflexivity).
  rewrite decode_body_encode by exact W. cbn [negb].
  (* left: METADATA_PUSH, which the decoder ignores off stream 0; wf puts it on stream 0 *)
  destruct f; try reflexivity. unfold wf in W. apply andb_true_iff in W. destruct W as [_ W].
  cbn [norm to_ignore]. change CONNECTION_STREAM_ID with 0. rewrite W. reflexivity.
Qed.

Theorem encode_norm f : encode (norm f) = encode f.
Proof.
  destruct f; try reflexivity.
  cbn [norm]. unfold encode, prefix, all_flags, md_len_field, body_data. cbn [tflags fsid ftype fign fmd fdata md_only middle].
  replace ((next || has_content md d) || has_content md d) with (next || has_content md d)
    by (destruct next, (has_content md d); reflexivity).
  reflexivity.
Qed.

Lemma wf_norm f : wf f = true -> wf (norm f) = true.
Proof. destruct f; cbn [norm]; auto. Qed.

Lemma lenN_mk_header sid ty flags : lenN (mk_header sid ty flags) = 6.
Proof. unfold mk_header, hdr_word. rewrite lenN_app, lenN_be. reflexivity. Qed.

Lemma frame_length_correct f : frame_length f = lenN (encode f).
Proof.
  unfold frame_length, encode, prefix, md_len_field. destruct gen_masks as (_ & _ & ->).
  rewrite !lenN_app, lenN_mk_header.
  destruct (is_nil (fmd f)); [rewrite lenN_nil; lia|].
  destruct (md_only f); [rewrite lenN_nil; lia|]. rewrite lenN_be. lia.
Qed.

Theorem partial_write f : encode_partial f = be 3 (lenN (encode f)) ++ encode f.
Proof.
  unfold encode_partial. rewrite frame_length_correct. unfold encode. rewrite <- ?app_assoc. reflexivity.
Qed.

(* O1: with the reserved top bit of the stream id set the two header parsers disagree *)
Example backend_reserved_bit_diverges :
  decode Native [x80; x00; x00; x01; x24; x00] <> decode Cbit [x80; x00; x00; x01; x24; x00].
Proof. vm_compute. discriminate. Qed.

Example wf_example :
  wf (FPayload 5 false false true false [x01] [x02; x03]) = true /\
  encode (FPayload 5 false false true false [x01] [x02; x03]) =
    [x00; x00; x00; x05; x29; x60; x00; x00; x01; x01; x02; x03].
Proof. vm_compute. split; reflexivity. Qed.
