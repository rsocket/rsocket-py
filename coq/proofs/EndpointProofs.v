(* Invariants of the endpoint model and the shape of its atomic sections.

   Every atomic section (ep_step, and recv_dispatch for the network model) is a short sequence of ELEMENTARY
   transitions [elem sid]: one step of a handler object's automaton (proofs/EndpointObjects.v), a registration, an
   un-registration (of the table entry alone, as the close sweep does it, or with the reassembly entry, finish_stream), a
   change to the reassembly entry of one stream, an allocation, one effect not addressed to an object.
   That is shown once ([step_trans] and its parts); a property of sections is then proved for the seven elementary
   transitions (one that speaks of a single object: for the three things a transition can be to it, [elem_at_object])
   and carried to sections and histories by induction on [trans]. *)
From Coq Require Import Arith NArith List Bool Lia.
From RSV Require Import gen.GenConst model.Frame model.Fragmenter model.StreamIds model.Endpoint proofs.FragmenterProofs
     proofs.EndpointObjects.
Import ListNotations.
Open Scope N_scope.

(* the part of [Inv] below that a dispatch needs (C09_peer_cancel_isolated assumes no more) *)
Definition WF (e : ep) : Prop :=
  forall sid oid, tget (table e) sid = Some oid -> exists o, nth_error (objs e) oid = Some o /\ o_sid o = sid.

Lemma WF_oid_bound e sid oid : WF e -> tget (table e) sid = Some oid -> (oid < length (objs e))%nat.
Proof. intros W H. destruct (W sid oid H) as (o & Ho & _). apply nth_error_Some. congruence. Qed.

Definition CWF (c : cache) : Prop := forall k g, cache_get c k = Some g -> fsid g = k.

Lemma merge_sid cur x : fsid (merge cur x) = fsid cur.
Proof. destruct cur; reflexivity. Qed.

Lemma builder_sid c f g : CWF c -> builder c f = Some g -> fsid g = fsid f.
Proof.
  intro W. unfold builder. destruct (cache_get c (fsid f)) as [cur|] eqn:Ec; [destruct (is_payload f); [|discriminate]|];
    intros [= <-]; [rewrite merge_sid; exact (W _ _ Ec)|reflexivity].
Qed.

Lemma CWF_set c k g : CWF c -> fsid g = k -> CWF (cache_set c k g).
Proof. intros W Hg j h. rewrite cache_get_set. destruct (N.eqb_spec k j) as [<-|]; [intros [= <-]; exact Hg|apply W]. Qed.

Lemma CWF_remove c k : CWF c -> CWF (cache_remove c k).
Proof. intros W j h. rewrite cache_get_remove. destruct (k =? j); [discriminate|apply W]. Qed.

Lemma cache_append_spec c f : CWF c ->
  CWF (fst (cache_append c f)) /\ match snd (cache_append c f) with AFrame g => fsid g = fsid f | _ => True end.
Proof.
  intro W. pose proof (builder_sid c f) as B. unfold cache_append.
  destruct (ffollows f), (builder c f) as [g|], (cache_get c (fsid f)); cbn [fst snd]; auto using CWF_set, CWF_remove.
Qed.

Record Inv (e : ep) : Prop := {
  inv_keys : NoDup (map fst (table e));
  inv_objs : forall s i, In (s, i) (table e) -> exists o, nth_error (objs e) i = Some o /\ o_sid o = s;
  inv_cwf : CWF (cachek e)
}.

Lemma tget_In t s i : NoDup (map fst t) -> (tget t s = Some i <-> In (s, i) t).
Proof.
  induction t as [|[a v] r IH]; cbn [tget map]; intro N; [split; [discriminate|intros []]|].
  inversion N as [|? ? Hn N']; subst. destruct (N.eqb_spec a s) as [->|Hne].
  - split; [intros [= ->]; left; reflexivity|]. intros [[= ->]|Hin]; [reflexivity|].
    destruct Hn. apply in_map_iff. exists (s, i). split; [reflexivity|exact Hin].
  - rewrite (IH N'). split; [intro H; right; exact H|intros [[= -> _]|H]; [congruence|exact H]].
Qed.

Lemma inv_WF e : Inv e -> WF e.
Proof. intros [K O _] s i Ht. apply O. apply tget_In; assumption. Qed.

Lemma tremove_In t k s i : In (s, i) (tremove t k) <-> In (s, i) t /\ s <> k.
Proof. unfold tremove. rewrite filter_In, negb_true_iff, N.eqb_neq. reflexivity. Qed.

Lemma tremove_keys_nodup t k : NoDup (map fst t) -> NoDup (map fst (tremove t k)).
Proof.
  unfold tremove. induction t as [|[a v] r IH]; cbn [filter map]; intro H; [constructor|].
  inversion H as [|? ? Hn H']; subst. destruct (negb (fst (a, v) =? k)); cbn [map fst]; [|apply IH; exact H'].
  constructor; [|apply IH; exact H']. intro Hin. apply Hn.
  apply in_map_iff in Hin. destruct Hin as ([s i] & E & Hin). cbn in E. subst s.
  apply filter_In in Hin. apply in_map_iff. exists (a, i). split; [reflexivity|apply Hin].
Qed.

Lemma inv_init first : Inv (ep_init first).
Proof. constructor; cbn; [constructor|intros s i []|intros k g; discriminate]. Qed.

Lemma finish_table_get e sid k : tget (table (finish e sid)) k = if sid =? k then None else tget (table e) k.
Proof. apply tget_tremove. Qed.
Lemma finish_cache_get e sid k : cache_get (cachek (finish e sid)) k = if sid =? k then None else cache_get (cachek e) k.
Proof. apply cache_get_remove. Qed.

Lemma commit_table e oid o f k : tget (table (commit e oid o f)) k = if f && (o_sid o =? k) then None else tget (table e) k.
Proof. unfold commit. destruct f; [rewrite finish_table_get|]; reflexivity. Qed.
Lemma commit_cache e oid o f k :
  cache_get (cachek (commit e oid o f)) k = if f && (o_sid o =? k) then None else cache_get (cachek e) k.
Proof. unfold commit. destruct f; [rewrite finish_cache_get|]; reflexivity. Qed.
Lemma commit_nth_other e oid o f j : j <> oid -> nth_error (objs (commit e oid o f)) j = nth_error (objs e) j.
Proof. intro H. rewrite commit_objs. apply nth_oset_other. congruence. Qed.

Lemma register_table e sid o k :
  tget (table (register_obj e sid o)) k = if sid =? k then Some (length (objs e)) else tget (table e) k.
Proof. apply tget_tset. Qed.
Lemma register_nth_old e sid o j : (j < length (objs e))%nat -> nth_error (objs (register_obj e sid o)) j = nth_error (objs e) j.
Proof. intro H. apply nth_error_app1. exact H. Qed.

Lemma inv_finish e sid : Inv e -> Inv (finish e sid).
Proof.
  intros [K O C]. constructor; cbn [finish table objs cachek].
  - apply tremove_keys_nodup. exact K.
  - intros s i Hin. apply tremove_In in Hin. apply O. apply Hin.
  - apply CWF_remove, C.
Qed.

Lemma inv_commit e oid o o' f : Inv e -> nth_error (objs e) oid = Some o -> o_sid o' = o_sid o -> Inv (commit e oid o' f).
Proof.
  intros [K O C] Ho Hs. assert (Inv (set_obj e oid o')) as I'; [|unfold commit; destruct f; [apply inv_finish|]; exact I'].
  constructor; [exact K| |exact C]. intros s i Hin. cbn [set_obj objs]. destruct (O s i Hin) as (x & Hx & Hxs).
  destruct (Nat.eq_dec i oid) as [->|Hne].
  - exists o'. split; [exact (nth_oset_same _ _ _ _ Hx)|congruence].
  - exists x. split; [rewrite nth_oset_other by congruence; exact Hx|exact Hxs].
Qed.

Lemma inv_register e sid o : Inv e -> o_sid o = sid -> Inv (register_obj e sid o).
Proof.
  intros [K O C] Hs. constructor; [| |exact C]; cbn [register_obj table objs tset map fst].
  - constructor; [|apply tremove_keys_nodup; exact K].
    intro Hin. apply in_map_iff in Hin. destruct Hin as ([s i] & E & Hin). cbn in E. subst s.
    apply tremove_In in Hin. destruct Hin as [_ Hne]. congruence.
  - intros s i [[= <- <-]|Hin].
    + exists o. split; [exact (register_nth e sid o)|exact Hs].
    + apply tremove_In in Hin. destruct (O s i (proj1 Hin)) as (x & Hx & Hxs). exists x. split; [|exact Hxs].
      rewrite nth_error_app1; [exact Hx|]. apply nth_error_Some. congruence.
Qed.

Definition set_cache (e : ep) (c : cache) : ep := {| sc := sc e; table := table e; objs := objs e; cachek := c |}.

(* frames reach an object through the table; application calls, callbacks and disposal reach it through a handle *)
Definition routed (e : ep) (sid : N) (oid : nat) (i : input) : Prop :=
  match i with OnLocal _ | OnDispose => True | _ => tget (table e) sid = Some oid end.

Definition plain (sid : N) (x : effect) : Prop := eff_oid x = None /\ queued_on sid x.

(* [el_register] asks nothing of sid: the model registers over an entry that is there (tset), so [trans] covers that as
   well. *)
Inductive elem (sid : N) : ep -> list effect -> ep -> Prop :=
| el_obj e oid o i : nth_error (objs e) oid = Some o -> o_sid o = sid -> routed e sid oid i -> admits o i ->
    elem sid e (c_effs (obj_step oid o i)) (commit e oid (c_obj (obj_step oid o i)) (c_fin (obj_step oid o i)))
| el_register e k hp : elem sid e [] (register_obj e sid (upd_sub (mk_obj k sid) hp false))
| el_unregister e : elem sid e [] (finish_table e sid)
| el_finish e : elem sid e [] (finish e sid)
| el_cache e c : CWF c -> (forall k, k <> sid -> cache_get c k = cache_get (cachek e) k) -> elem sid e [] (set_cache e c)
| el_alloc e : elem sid e [] (snd (alloc e))
| el_emit e x : plain sid x -> elem sid e [x] e.

Inductive trans (S : N -> Prop) : ep -> list effect -> ep -> Prop :=
| t_nil e : trans S e [] e
| t_cons sid e x e1 y e2 : S sid -> elem sid e x e1 -> trans S e1 y e2 -> trans S e (x ++ y) e2.

Definition all_streams : N -> Prop := fun _ => True.

Lemma elem_inv sid e x e' : Inv e -> elem sid e x e' -> Inv e'.
Proof.
  intros I H. destruct H as [e oid o i Ho _ _ _|e k hp|e|e|e c Hc _|e|e x _].
  - apply (inv_commit e oid o); [exact I|exact Ho|apply obj_step_same].
  - apply inv_register; [exact I|reflexivity].
  - destruct (inv_finish e sid I) as [K O _]. destruct I as [_ _ C]. constructor; assumption.
  - apply inv_finish. exact I.
  - destruct I as [K O _]. constructor; assumption.
  - destruct I as [K O C]. unfold alloc. destruct (allocate (sc e)). constructor; assumption.
  - exact I.
Qed.

Lemma trans_inv (S : N -> Prop) e x e' : trans S e x e' -> Inv e -> Inv e'.
Proof. induction 1 as [|sid e x e1 y e2 _ He _ IH]; intro I; [exact I|]. apply IH. exact (elem_inv _ _ _ _ I He). Qed.

Inductive elem_at (oid : nat) (sid : N) (e : ep) (x : list effect) (e' : ep) : Prop :=
| at_step o i : nth_error (objs e) oid = Some o -> o_sid o = sid -> routed e sid oid i -> admits o i ->
    x = c_effs (obj_step oid o i) -> e' = commit e oid (c_obj (obj_step oid o i)) (c_fin (obj_step oid o i)) ->
    nth_error (objs e') oid = Some (c_obj (obj_step oid o i)) -> elem_at oid sid e x e'
| at_new k hp : nth_error (objs e) oid = None -> x = [] ->
    nth_error (objs e') oid = Some (upd_sub (mk_obj k sid) hp false) -> elem_at oid sid e x e'
| at_other : nth_error (objs e') oid = nth_error (objs e) oid -> Forall (fun y => eff_oid y <> Some oid) x ->
    elem_at oid sid e x e'.

Lemma elem_at_object oid sid e x e' : elem sid e x e' -> elem_at oid sid e x e'.
Proof.
  intro H. destruct H as [e j o i Ho Hs Hr Ha|e k hp|e|e|e c _ _|e|e x [Hx _]]; try (apply at_other; [reflexivity|constructor]; fail).
  - destruct (Nat.eq_dec j oid) as [->|Hne].
    { exact (at_step _ _ _ _ _ o i Ho Hs Hr Ha eq_refl eq_refl (commit_nth _ _ _ _ _ Ho)). }
    apply at_other; [apply commit_nth_other; congruence|]. eapply Forall_impl; [|apply obj_step_addr].
    intros y Hy E. exact (Hne (eq_sym (Hy _ E))).
  - destruct (lt_eq_lt_dec oid (length (objs e))) as [[Hl| ->]|Hl].
    + apply at_other; [apply register_nth_old; exact Hl|constructor].
    + apply (at_new _ _ _ _ _ k hp); [apply nth_error_None, le_n|reflexivity|apply register_nth].
    + apply at_other; [|constructor]. transitivity (@None hobj); [|symmetry]; apply nth_error_None; [|lia].
      cbn. rewrite app_length. cbn. lia.
  - apply at_other; [unfold alloc; destruct (allocate (sc e)); reflexivity|constructor].
  - apply at_other; [reflexivity|]. constructor; [congruence|constructor].
Qed.

Lemma trans_app (S : N -> Prop) e x e1 y e2 : trans S e x e1 -> trans S e1 y e2 -> trans S e (x ++ y) e2.
Proof. induction 1; intro T; [exact T|]. rewrite <- app_assoc. econstructor; eauto. Qed.

Lemma trans_weaken (S S' : N -> Prop) e x e' : (forall k, S k -> S' k) -> trans S e x e' -> trans S' e x e'.
Proof. intros HS H. induction H; econstructor; eauto. Qed.

Lemma trans_emit (S : N -> Prop) sid e xs : S sid -> Forall (plain sid) xs -> trans S e xs e.
Proof.
  intros Hs H. induction H as [|x xs Hx _ IH]; [constructor|].
  exact (t_cons _ _ _ [x] _ _ _ Hs (el_emit sid e x Hx) IH).
Qed.

(* Every atomic section other than the close sweep has a finer shape: elementary transitions that emit nothing, then at
   most ONE that emits (a step of a handler object), then effects addressed to no object. *)
Inductive single (sid : N) : ep -> list effect -> ep -> Prop :=
| sg_pre e e1 x e2 : elem sid e [] e1 -> single sid e1 x e2 -> single sid e x e2
| sg_obj e x e1 xs : elem sid e x e1 -> Forall (plain sid) xs -> single sid e (x ++ xs) e1
| sg_plain e xs : Forall (plain sid) xs -> single sid e xs e.

Lemma single_trans sid e x e' : single sid e x e' -> trans (eq sid) e x e'.
Proof.
  induction 1 as [e e1 x e2 He _ IH|e x e1 xs He Hxs|e xs Hxs].
  - exact (t_cons _ _ _ [] _ _ _ eq_refl He IH).
  - exact (t_cons _ _ _ _ _ _ _ eq_refl He (trans_emit _ sid _ _ eq_refl Hxs)).
  - exact (trans_emit _ sid _ _ eq_refl Hxs).
Qed.

Definition handler_call (f : frame) : list effect :=
  match f with
  | FRequestResponse _ _ _ md d => [XHandler HResponse md d]
  | FRequestStream _ _ _ _ md d => [XHandler HStream md d]
  | FRequestChannel _ _ _ _ _ md d => [XHandler HChannel md d]
  | FRequestFnf _ _ _ md d => [XHandler HFnf md d]
  | FMetadataPush _ _ md => [XHandler HMetaPush md []]
  | FError _ _ _ d => [XHandler HOnError [] d]
  | _ => []
  end.

Definition answer (f g : frame) : Prop :=
  match g with
  | FError s _ _ d => s = fsid f /\ d = []
  | FKeepalive s _ respond _ _ => s = fsid f /\ s = CONNECTION_STREAM_ID /\ respond = false
  | _ => False
  end.

(* what a dispatch can be: a step of the object registered for the frame's stream, the registration and set-up of a
   responder, or effects alone *)
Inductive dispatched (e : ep) (f : frame) (u : bool) : ep * list effect -> Prop :=
| d_frame oid ob : tget (table e) (fsid f) = Some oid -> nth_error (objs e) oid = Some ob ->
    dispatched e f u (commit e oid (c_obj (obj_step oid ob (OnFrame f u))) (c_fin (obj_step oid ob (OnFrame f u))),
                      c_effs (obj_step oid ob (OnFrame f u)) ++
                      if snd (obj_frame oid ob f u) then [raised_error (fsid f) EC_APPLICATION_ERROR] else [])
| d_setup ob hs : tget (table e) (fsid f) = None -> admits ob (OnSetup f hs) ->
    dispatched e f u (perform (register_obj e (fsid f) ob) (length (objs e)) (obj_step (length (objs e)) ob (OnSetup f hs)))
| d_call (called : bool) r : Forall (answer f) r ->
    dispatched e f u (e, (if called then handler_call f else []) ++ map XEnq r).

Lemma recv_dispatch_stream e f oc u oid ob :
  (fsid f =? CONNECTION_STREAM_ID) || is_request_type f = false ->
  tget (table e) (fsid f) = Some oid -> nth_error (objs e) oid = Some ob ->
  recv_dispatch e f oc u =
  (commit e oid (c_obj (obj_step oid ob (OnFrame f u))) (c_fin (obj_step oid ob (OnFrame f u))),
   c_effs (obj_step oid ob (OnFrame f u)) ++
   if snd (obj_frame oid ob f u) then [raised_error (fsid f) EC_APPLICATION_ERROR] else []).
Proof. intros Hc Ht Ho. unfold recv_dispatch. rewrite Hc, Ht, Ho, (handler_frame_obj _ _ _ _ _ Ho). reflexivity. Qed.

Lemma responder_fresh f oc ob hs : responder_for f oc = Some (ob, hs) -> admits ob (OnSetup f hs).
Proof. destruct f, oc; try discriminate; intros [= <- <-]; eexists; reflexivity. Qed.

Theorem recv_dispatch_dispatched e f oc u : dispatched e f u (recv_dispatch e f oc u).
Proof.
  assert (forall (called : bool) code, dispatched e f u (e, (if called then handler_call f else []) ++ [raised_error (fsid f) code])) as Err
    by (intros called code; apply (d_call e f u called [f_error (fsid f) code []]); repeat constructor).
  pose proof (fun called : bool => d_call e f u called [] (Forall_nil _)) as Quiet. cbn [map] in Quiet.
  assert (forall oc', tget (table e) (fsid f) = None -> dispatched e f u (open_responder e f oc')) as Open.
  { intros oc' Ht. rewrite open_responder_obj. destruct (responder_for f oc') as [[ob hs]|] eqn:E; [|exact (Quiet false)].
    exact (d_setup e f u ob hs Ht (responder_fresh _ _ _ _ E)). }
  destruct ((fsid f =? CONNECTION_STREAM_ID) || is_request_type f) eqn:Hc.
  - (* connection-level frames and requests *)
    unfold recv_dispatch. rewrite Hc.
    (* types without a handler change nothing, RESUME is refused, a request on an id in use is rejected; left: KEEPALIVE
       first, then the requests on a free id and the other calls of the application's handler *)
    destruct f; cbn [fsid handler_call] in *; try exact (Quiet false); try exact (Err false _);
      try (destruct (tget (table e) sid) eqn:Ht; [exact (Err false _)|]).
    1: { (* KEEPALIVE is on stream 0 *)
      destruct respond; [|exact (Quiet false)]. apply (d_call e _ u false [FKeepalive sid ign false pos d]). repeat constructor.
      rewrite orb_false_r in Hc. apply N.eqb_eq. exact Hc. }
    (* a request on a free id opens a responder unless the handler raises or the id is 0; the other calls change nothing *)
    all: destruct (default_outcome _ oc); try exact (Err true _);
      first [exact (Quiet true)|destruct (sid =? CONNECTION_STREAM_ID); [exact (Err true _)|exact (Open _ eq_refl)]].
  - (* a frame for a registered stream goes to its handler object *)
    destruct (tget (table e) (fsid f)) as [oid|] eqn:Ht; [|unfold recv_dispatch; rewrite Hc, Ht; exact (Quiet false)].
    destruct (nth_error (objs e) oid) as [ob|] eqn:Ho; [|unfold recv_dispatch; rewrite Hc, Ht, Ho; exact (Quiet false)].
    rewrite (recv_dispatch_stream e f oc u oid ob Hc Ht Ho). exact (d_frame e f u oid ob Ht Ho).
Qed.

Lemma recv_dispatch_idle e f o u : is_request_type f = false -> tget (table e) (fsid f) = None ->
  fst (recv_dispatch e f o u) = e.
Proof.
  intros Er Hn. unfold recv_dispatch. rewrite Er, orb_false_r, Hn.
  destruct (fsid f =? CONNECTION_STREAM_ID); [destruct f; try discriminate Er|]; reflexivity.
Qed.

Lemma answer_plain f r : Forall (answer f) r -> forall called : bool,
  Forall (plain (fsid f)) ((if called then handler_call f else []) ++ map XEnq r).
Proof.
  intros Hr called. apply Forall_app. split; [destruct called; [destruct f|]; repeat constructor|].
  induction Hr as [|g r Hg _ IH]; [constructor|]. constructor; [|exact IH]. split; [reflexivity|].
  destruct g; try contradiction; apply Hg.
Qed.

Theorem recv_dispatch_single e f oc u : WF e ->
  single (fsid f) e (snd (recv_dispatch e f oc u)) (fst (recv_dispatch e f oc u)).
Proof.
  intro W. destruct (recv_dispatch_dispatched e f oc u) as [oid ob Ht Ho|ob hs Ht Ha|called r Hr]; cbn [fst snd perform].
  - destruct (W _ _ Ht) as (ob' & Ho' & Hsid). replace ob' with ob in Hsid by congruence.
    apply sg_obj; [exact (el_obj (fsid f) e oid ob (OnFrame f u) Ho Hsid Ht Logic.I)|].
    destruct (snd (obj_frame oid ob f u)); repeat constructor.
  - destruct Ha as (hp & ->). apply (sg_pre _ _ _ _ _ (el_register (fsid f) e (responder_kind f) hp)).
    rewrite <- (app_nil_r (c_effs _)). apply sg_obj; [|constructor].
    apply (el_obj _ _ _ _ (OnSetup f hs)); [apply register_nth|reflexivity| |exists hp; reflexivity].
    cbn [routed]. rewrite register_table, N.eqb_refl. reflexivity.
  - apply sg_plain, answer_plain, Hr.
Qed.

Theorem recv_frame_single e f oc u : WF e -> CWF (cachek e) ->
  single (fsid f) e (snd (recv_frame e f oc u)) (fst (recv_frame e f oc u)).
Proof.
  intros W C. unfold recv_frame. destruct (stray_fragment e f); [apply sg_plain; constructor|].
  destruct (is_fragmentable f); [|apply recv_dispatch_single; exact W].
  destruct (cache_append_spec (cachek e) f C) as [Hc Hs].
  pose proof (fun k H => cache_append_local (cachek e) f k H) as Hl.
  destruct (cache_append (cachek e) f) as [c' a]. cbn [fst snd] in Hc, Hs, Hl.
  pose proof (el_cache (fsid f) e c' Hc Hl) as E.
  destruct a as [g| |]; cbn [fst snd].
  - apply (sg_pre _ _ _ _ _ E). rewrite <- Hs. apply recv_dispatch_single. exact W.
  - apply (sg_pre _ _ _ _ _ E). apply sg_plain; constructor.
  - apply sg_plain; repeat constructor.
Qed.

Lemma recv_frame_whole e f o u : ffollows f = false -> cache_get (cachek e) (fsid f) = None ->
  recv_frame e f o u = recv_dispatch e f o u.
Proof.
  intros Hf Hc. unfold recv_frame, cache_append.
  assert (stray_fragment e f = false) as -> by (destruct f; try reflexivity; cbn in Hf; rewrite Hf; reflexivity).
  rewrite Hf, Hc. destruct (is_fragmentable f); [destruct e|]; reflexivity.
Qed.

(* C12 / C08: frames for unknown streams *)
Theorem unknown_stream_dropped e f o u : is_fragmentable f = false -> is_request_type f = false ->
  fsid f <> CONNECTION_STREAM_ID -> tget (table e) (fsid f) = None -> recv_frame e f o u = (e, []).
Proof.
  intros Hf Hr Hs Ht. unfold recv_frame.
  assert (stray_fragment e f = false) as -> by (destruct f; try discriminate Hf; reflexivity).
  rewrite Hf. unfold recv_dispatch. rewrite Hr, orb_false_r.
  destruct (N.eqb_spec (fsid f) CONNECTION_STREAM_ID); [congruence|]. rewrite Ht. reflexivity.
Qed.

Lemma elem_off sid e x e' k : elem sid e x e' -> k <> sid ->
  tget (table e') k = tget (table e) k /\ cache_get (cachek e') k = cache_get (cachek e) k.
Proof.
  intros H Hk. assert (sid =? k = false) as E by (apply N.eqb_neq; congruence).
  destruct H as [e oid o i _ Hs _ _|e k0 hp|e|e|e c _ Hc|e|e x _]; try (split; reflexivity).
  - rewrite commit_table, commit_cache, (proj2 (obj_step_same oid o i)), Hs, E, andb_false_r. split; reflexivity.
  - rewrite register_table, E. split; reflexivity.
  - cbn [finish_table table cachek]. rewrite tget_tremove, E. split; reflexivity.
  - rewrite finish_table_get, finish_cache_get, E. split; reflexivity.
  - split; [reflexivity|apply Hc; exact Hk].
  - unfold alloc. destruct (allocate (sc e)). split; reflexivity.
Qed.

Lemma trans_off (S : N -> Prop) e x e' k : trans S e x e' -> ~ S k ->
  tget (table e') k = tget (table e) k /\ cache_get (cachek e') k = cache_get (cachek e) k.
Proof.
  intros H Hk. induction H as [|sid e x e1 y e2 Hs He _ [IH1 IH2]]; [split; reflexivity|].
  destruct (elem_off _ _ _ _ k He) as [A B]; [intros ->; exact (Hk Hs)|]. split; congruence.
Qed.

Lemma close_one_trans e sid oid : Inv e -> tget (table e) sid = Some oid ->
  trans (eq sid) e (snd (close_one e sid oid)) (fst (close_one e sid oid)).
Proof.
  intros I Ht. destruct (inv_WF e I sid oid Ht) as (o & Ho & Hs).
  rewrite (close_one_obj e sid oid o Ho). cbv zeta. cbn [fst snd].
  (* disposal, then the entry goes *)
  assert (forall e1 o1, nth_error (objs e1) oid = Some o1 -> o_sid o1 = sid ->
            trans (eq sid) e1 (c_effs (obj_step oid o1 OnDispose))
                  (finish_table (commit e1 oid (c_obj (obj_step oid o1 OnDispose)) false) sid)) as D.
  { intros e1 o1 H1 Hs1. rewrite <- (app_nil_r (c_effs _)).
    apply (t_cons _ _ _ _ _ _ _ eq_refl (el_obj sid e1 oid o1 OnDispose H1 Hs1 Logic.I Logic.I)).
    exact (t_cons _ _ _ [] _ [] _ eq_refl (el_unregister sid _) (t_nil _ _)). }
  destruct (is_requester (o_kind o)).
  - apply (t_cons _ _ _ _ _ _ _ eq_refl (el_obj sid e oid o (OnFrame (sweep_frame sid) true) Ho Hs Ht Logic.I)).
    apply D; [exact (commit_nth _ _ _ _ _ Ho)|]. rewrite <- Hs. apply obj_step_same.
  - cbn [stay c_obj c_fin c_effs app]. rewrite (set_obj_same _ _ _ Ho : commit e oid o false = e).
    apply D; assumption.
Qed.

Lemma close_all_trans : forall entries e, Inv e -> NoDup (map fst entries) ->
  (forall s i, In (s, i) entries -> tget (table e) s = Some i) ->
  trans (fun k => In k (map fst entries)) e (snd (close_all e entries)) (fst (close_all e entries)).
Proof.
  induction entries as [|[sid oid] r IH]; intros e I Hnd Hsub; cbn [close_all]; [constructor|].
  pose proof (close_one_trans e sid oid I (Hsub _ _ (or_introl eq_refl))) as H1.
  cbn [map fst] in Hnd. apply NoDup_cons_iff in Hnd. destruct Hnd as [Hni Hnd].
  destruct (close_one e sid oid) as [e1 x1]. cbn [fst snd] in H1.
  (* the head's sweep touches stream sid only (trans_off) and no later entry is on sid (NoDup): the rest is still registered *)
  assert (forall s i, In (s, i) r -> tget (table e1) s = Some i) as Hsub1.
  { intros s i Hin. rewrite (proj1 (trans_off _ _ _ _ s H1 (fun E : sid = s => Hni ltac:(rewrite E; exact (in_map fst _ _ Hin))))).
    apply Hsub. right. exact Hin. }
  specialize (IH e1 (trans_inv _ _ _ _ H1 I) Hnd Hsub1). destruct (close_all e1 r) as [e2 x2].
  exact (trans_app _ _ _ _ _ _ (trans_weaken _ _ _ _ _ (fun k E => or_introl E) H1)
                               (trans_weaken _ _ _ _ _ (fun k H => or_intror H) IH)).
Qed.

Theorem close_trans u e : Inv e ->
  trans (fun k => tget (table e) k <> None) e (snd (ep_step u e LClose)) (fst (ep_step u e LClose)).
Proof.
  intro I. cbn [ep_step]. eapply trans_weaken; [|apply close_all_trans; [exact I|rewrite map_rev; apply NoDup_rev, I|]].
  - intros k Hin. rewrite map_rev, <- in_rev in Hin. apply in_map_iff in Hin. destruct Hin as ([s i] & <- & Hin).
    apply (tget_In _ s i (inv_keys e I)) in Hin. cbn [fst]. congruence.
  - intros s i Hin. apply tget_In; [apply I|apply in_rev; exact Hin].
Qed.

Theorem local_single u e l oid o : subject l = Some oid -> nth_error (objs e) oid = Some o ->
  single (o_sid o) e (snd (ep_step u e l)) (fst (ep_step u e l)).
Proof.
  intros Hl Ho. rewrite (local_step_obj u e l oid o Hl Ho). unfold perform. cbn [fst snd]. rewrite <- (app_nil_r (c_effs _)).
  apply sg_obj; [exact (el_obj _ e oid o (OnLocal l) Ho eq_refl Logic.I Logic.I)|constructor].
Qed.

Theorem step_single u e l : Inv e -> l <> LClose -> exists sid, single sid e (snd (ep_step u e l)) (fst (ep_step u e l)).
Proof.
  intros I Hc. destruct (subject l) as [oid|] eqn:Hl.
  - destruct (nth_error (objs e) oid) as [o|] eqn:Ho; [exists (o_sid o); exact (local_single u e l oid o Hl Ho)|].
    rewrite (local_step_none u e l oid Hl Ho). exists 0. apply sg_plain; constructor.
  - pose proof (fun sid x e2 => sg_pre sid e (snd (alloc e)) x e2 (el_alloc sid e)) as A.
    destruct l; try discriminate Hl; try contradiction; cbn [ep_step];
      try (destruct (alloc e) as [[sid|] e1]; cbn [fst snd] in *; [exists sid; apply A|exists 0; apply A, sg_plain; repeat constructor]).
    (* left: the id the three requests allocated is registered, fire-and-forget finishes it; then metadata_push and
       LRecv, which allocate nothing *)
    + apply (sg_pre _ _ _ _ _ (el_register sid e1 KRRReq false)). apply sg_plain; repeat constructor.
    + apply (sg_pre _ _ _ _ _ (el_register sid e1 KRSReq false)). apply sg_plain; constructor.
    + apply (sg_pre _ _ _ _ _ (el_register sid e1 KChanReq has_pub)). apply sg_plain; constructor.
    + apply (sg_pre _ _ _ _ _ (el_finish sid e1)). apply sg_plain; repeat constructor.
    + exists 0. apply sg_plain; repeat constructor.
    + exists (fsid f). apply recv_frame_single; [apply inv_WF|]; apply I.
Qed.

Lemma close_or_not l : l = LClose \/ l <> LClose.
Proof. destruct l; (left; reflexivity) || (right; discriminate). Qed.

Theorem step_trans u e l : Inv e -> trans all_streams e (snd (ep_step u e l)) (fst (ep_step u e l)).
Proof.
  intro I. destruct (close_or_not l) as [->|Hc].
  - exact (trans_weaken _ all_streams _ _ _ (fun _ _ => Logic.I) (close_trans u e I)).
  - destruct (step_single u e l I Hc) as [sid H].
    exact (trans_weaken _ all_streams _ _ _ (fun _ _ => Logic.I) (single_trans _ _ _ _ H)).
Qed.

Theorem inv_step u e l : Inv e -> Inv (fst (ep_step u e l)).
Proof. intro I. exact (trans_inv _ _ _ _ (step_trans u e l I) I). Qed.

Theorem run_trans : forall ls e, Inv e -> trans all_streams e (concat (snd (ep_run e ls))) (fst (ep_run e ls)).
Proof.
  induction ls as [|[l u] r IH]; intros e I; cbn [ep_run]; [constructor|].
  pose proof (step_trans u e l I) as H1. destruct (ep_step u e l) as [e1 x]. cbn [fst snd] in H1.
  specialize (IH e1 (trans_inv _ _ _ _ H1 I)). destruct (ep_run e1 r) as [e2 xs]. exact (trans_app _ _ _ _ _ _ H1 IH).
Qed.

(* a quantity c of EFFECTS paid for out of a potential of the state: shown for elementary transitions, it holds of
   every sequence of them (a quantity of state changes that emit nothing needs its own induction on [trans]) *)
Theorem potential (c : list effect -> nat) (pot : ep -> nat) :
  (forall a b, c (a ++ b) = c a + c b)%nat ->
  (forall sid e x e', Inv e -> elem sid e x e' -> c x + pot e' <= pot e)%nat ->
  forall (S : N -> Prop) e x e', Inv e -> trans S e x e' -> (c x + pot e' <= pot e)%nat.
Proof.
  intros Happ Hel S e x e' I H. induction H as [e|sid e x e1 y e2 _ He _ IH].
  - pose proof (Happ [] []) as H0. cbn [app] in H0. lia.
  - specialize (Hel _ _ _ _ I He). specialize (IH (elem_inv _ _ _ _ I He)). rewrite Happ. lia.
Qed.

Definition step_state (e : ep) (lu : label * bool) : ep := fst (ep_step (snd lu) e (fst lu)).
Definition reach (first : N) (ls : list (label * bool)) : ep := fold_left step_state ls (ep_init first).

Definition enq_on (sid : N) (effs : list effect) : Prop :=
  Forall (fun x => match x with XEnq g => fsid g = sid | _ => True end) effs.

Lemma obj_step_enq oid o i : enq_on (o_sid o) (c_effs (obj_step oid o i)).
Proof. eapply Forall_impl; [|apply obj_step_own]. intros x [_ H]. exact H. Qed.

Lemma trans_enq_on sid e x e' : trans (eq sid) e x e' -> enq_on sid x.
Proof.
  induction 1 as [|s e x e1 y e2 <- He _ IH]; [constructor|]. apply Forall_app. split; [|exact IH].
  destruct He as [e oid o i _ <- _ _|e k hp|e|e|e c _ _|e|e x [_ Hg]]; try constructor; [apply obj_step_enq|exact Hg|constructor].
Qed.

(* C12 / C09: handling one received frame, reassembly included, touches only that frame's stream *)
Theorem recv_frame_local e f o u k : WF e -> CWF (cachek e) -> k <> fsid f ->
  let '(e', effs) := recv_frame e f o u in
  tget (table e') k = tget (table e) k /\ cache_get (cachek e') k = cache_get (cachek e) k /\ enq_on (fsid f) effs.
Proof.
  intros W C Hk. pose proof (single_trans _ _ _ _ (recv_frame_single e f o u W C)) as T.
  destruct (recv_frame e f o u) as [e' effs]. destruct (trans_off _ _ _ _ k T (not_eq_sym Hk)) as [A B].
  split; [exact A|]. split; [exact B|exact (trans_enq_on _ _ _ _ T)].
Qed.

Lemma set_obj_table e oid o : table (set_obj e oid o) = table e /\ cachek (set_obj e oid o) = cachek e.
Proof. split; reflexivity. Qed.

Definition gone (e : ep) (sid : N) : Prop := tget (table e) sid = None /\ cache_get (cachek e) sid = None.

Lemma finish_gone e sid : gone (finish e sid) sid.
Proof. split; [rewrite finish_table_get|rewrite finish_cache_get]; rewrite N.eqb_refl; reflexivity. Qed.

(* C10 / C09: the peer cancels a request-response *)
Theorem cancel_rr_responder e oid o u : o_kind o = KRRResp ->
  let '(e', effs, raised) := handler_frame e oid o (FCancel (o_sid o) false) u in
  gone e' (o_sid o) /\ raised = false /\ effs = (match o_fut o with FPending => [XAppFutCancel oid] | _ => [] end).
Proof. intro Hk. unfold handler_frame. rewrite Hk. destruct (o_fut o); repeat split; apply finish_gone. Qed.

(* F16 (known finding KF-C10-channel-abnormal-end): the state in which a peer ERROR or a local cancel() closes only the
   receiving direction of a channel *)
Definition f16_obj : hobj := upd_sub (mk_obj KChanReq 1) true true.
Definition f16_ep : ep := register_obj (ep_init 1) 1 f16_obj.
