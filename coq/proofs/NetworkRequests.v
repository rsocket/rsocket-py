(* C01, no loss over whole histories: a request reaches the peer's handler exactly once (model/Network.v). *)
From Coq Require Import NArith List Bool Lia.
From RSV Require Import lib.Bytes model.Frame model.StreamIds model.Endpoint model.Network proofs.StreamIdsProofs proofs.EndpointObjects proofs.EndpointProofs proofs.NetworkProofs.
Import ListNotations.
Open Scope N_scope.

Definition SInv (par : N) (e : ep) : Prop := StreamIdsProofs.Inv 31 par (sc e).

Lemma alloc_parity par e : SInv par e ->
  SInv par (snd (alloc e)) /\ forall k, fst (alloc e) = Some k -> k mod 2 = par mod 2.
Proof.
  intro S. destruct (allocate_inv 31 par (sc e) ltac:(discriminate) S) as [HA Hid]. unfold alloc.
  destruct (allocate (sc e)) as [r s']. split; [exact HA|]. intros k Hk. apply (Hid k Hk).
Qed.

(* besides allocation only registering and finishing touch the allocator, and they change its set of active ids only *)
Lemma elem_sinv par sid e x e' : elem sid e x e' -> SInv par e -> SInv par e'.
Proof.
  intros H S. destruct H as [e oid o i _ _ _ _|e k hp|e|e|e c _ _|e|e x _]; try exact S.
  - unfold commit. destruct (c_fin _); exact S.
  - apply register_inv, S.
  - apply alloc_parity, S.
Qed.

Lemma trans_sinv par (S : N -> Prop) e x e' : trans S e x e' -> SInv par e -> SInv par e'.
Proof. induction 1 as [|sid e x e1 y e2 _ He _ IH]; intro I; [exact I|]. apply IH. exact (elem_sinv _ _ _ _ _ He I). Qed.

Lemma dispatch_new_key e f o u k : WF e -> tget (table e) k = None ->
  tget (table (fst (recv_dispatch e f o u))) k <> None -> is_request_type f = true /\ fsid f = k.
Proof.
  intros W Hn H. destruct (N.eq_dec (fsid f) k) as [<-|Hne].
  - split; [|reflexivity]. destruct (is_request_type f) eqn:Er; [reflexivity|]. destruct H.
    rewrite (recv_dispatch_idle e f o u Er Hn). exact Hn.
  - destruct H. rewrite <- Hn. apply (trans_off _ _ _ _ k (single_trans _ _ _ _ (recv_dispatch_single e f o u W))). exact Hne.
Qed.

Lemma local_new_key u e l k : EndpointProofs.Inv e -> is_recv l = false -> tget (table e) k = None ->
  tget (table (fst (ep_step u e l))) k <> None -> fst (alloc e) = Some k.
Proof.
  intros I Hl Hn H. destruct (subject l) as [oid|] eqn:Sl.
  - (* a step of a handler object at most removes its entry *)
    destruct H. destruct (nth_error (objs e) oid) as [o|] eqn:Ho; [|rewrite (local_step_none u e l oid Sl Ho); exact Hn].
    rewrite (local_step_obj u e l oid o Sl Ho). unfold perform. cbn [fst]. rewrite commit_table, Hn. destruct (_ && _); reflexivity.
  - (* request_response, fire_and_forget, request_stream, request_channel; metadata_push; close *)
    destruct l; try discriminate Sl; try discriminate Hl; cbn [ep_step] in H.
    1-4: unfold alloc in *; destruct (allocate (sc e)) as [[sid|] s']; cbn [fst snd] in *; [|contradiction];
      rewrite ?register_table, ?finish_table_get in H; cbn [table] in H; destruct (N.eqb_spec sid k); congruence.
    + contradiction.
    + (* the sweep concerns registered streams *)
      destruct H. rewrite <- Hn. apply (trans_off _ _ _ _ k (close_trans u e I)). intro X. exact (X Hn).
Qed.

Definition par (s : side) : N := match s with SA => 1 | SB => 2 end.

Definition reqk (k : N) (l : list frame) : list frame := filter is_request_type (on_stream k l).

Lemma reqk_app k a b : reqk k (a ++ b) = reqk k a ++ reqk k b.
Proof. unfold reqk. rewrite on_stream_app. apply filter_app. Qed.

Lemma reqk_In k l f : In f (reqk k l) <-> In f l /\ fsid f = k /\ is_request_type f = true.
Proof.
  unfold reqk, on_stream. rewrite !filter_In. rewrite N.eqb_eq. tauto.
Qed.

Lemma reqk_in_flight n tr s k : in_flight n tr ->
  reqk k (nwire tr (other s)) = reqk k (delivered tr s) ++ reqk k (inbox n s).
Proof. intro L. unfold reqk. rewrite (L s k). apply filter_app. Qed.

Lemma reqk_one k f : reqk k [f] = if (fsid f =? k) && is_request_type f then [f] else [].
Proof. unfold reqk, on_stream. cbn [filter]. destruct (fsid f =? k); [cbn [filter]; destruct (is_request_type f)|]; reflexivity. Qed.

(* the invariant of histories: an id of the peer's parity is free as long as no request frame on it has been dispatched *)
Definition NK (n : net) (tr : list nevent) : Prop :=
  forall s, EndpointProofs.Inv (ep_of n s) /\ SInv (par s) (ep_of n s) /\
            forall k, k mod 2 <> par s mod 2 -> reqk k (delivered tr s) = [] -> tget (table (ep_of n s)) k = None.

Lemma NK_init : NK net_init [].
Proof. intros []; (split; [apply inv_init|]; split; [apply init_inv; auto|reflexivity]). Qed.

Lemma NK_update n tr s0 e' q sent x : NK n tr -> EndpointProofs.Inv e' -> SInv (par s0) e' ->
  (forall k, k mod 2 <> par s0 mod 2 -> reqk k (delivered x s0) = [] ->
             tget (table (ep_of n s0)) k = None -> tget (table e') k <> None -> False) ->
  NK (update n s0 e' q sent) (tr ++ x).
Proof.
  intros K I S New s. destruct (K s) as (I' & S' & T').
  destruct (side_cases s s0) as [-> | ->]; [rewrite ep_of_update_self|rewrite ep_of_update_other];
    (split; [assumption|]; split; [assumption|]); intros k Hp Hr;
    rewrite delivered_app, reqk_app in Hr; apply app_eq_nil in Hr as [H1 H2]; [|exact (T' k Hp H1)].
  destruct (tget (table e') k) eqn:E; [|reflexivity]. destruct (New k Hp H2 (T' k Hp H1)). congruence.
Qed.

Lemma NK_step n tr l : NK n tr -> NK (fst (net_step n l)) (tr ++ snd (net_step n l)).
Proof.
  intro K. destruct (net_step_stepped n l) as [l|s l Hl|s k0 f q o u _]; cbn [fst snd]; [rewrite app_nil_r; exact K| |];
    destruct (K s) as (I & S & _).
  - pose proof (step_trans true (ep_of n s) l I) as T.
    apply NK_update; [exact K|exact (trans_inv _ _ _ _ T I)|exact (trans_sinv _ _ _ _ _ T S)|].
    (* a new id is the allocator's, of this side's parity *)
    intros k Hp _ Hn Hk. apply Hp, (proj2 (alloc_parity _ _ S) k), (local_new_key true _ l k I Hl Hn Hk).
  - pose proof (single_trans _ _ _ _ (recv_dispatch_single (ep_of n s) f o u (inv_WF _ I))) as T.
    apply NK_update; [exact K|exact (trans_inv _ _ _ _ T I)|exact (trans_sinv _ _ _ _ _ T S)|].
    intros k _ Hr Hn Hk. destruct (dispatch_new_key _ f o u k (inv_WF _ I) Hn Hk) as [Er Ef].
    cbn [delivered] in Hr. rewrite app_nil_r, side_eqb_refl, reqk_one, Er, Ef, N.eqb_refl in Hr. discriminate Hr.
Qed.

(* the payloads the application at s was handed by deliveries of request frames on stream k *)
Fixpoint got_req (tr : list nevent) (s : side) (k : N) : list (bytes * bytes) :=
  match tr with
  | [] => []
  | EvDeliver s' f effs :: r =>
      (if side_eqb s' s && (fsid f =? k) && is_request_type f then app_payloads effs else []) ++ got_req r s k
  | _ :: r => got_req r s k
  end.

Lemma got_req_app a b s k : got_req (a ++ b) s k = got_req a s k ++ got_req b s k.
Proof. induction a as [|x a IH]; [reflexivity|]. destruct x; cbn [got_req app]; rewrite IH, ?app_assoc; reflexivity. Qed.

(* as long as at most one request frame on k has been dispatched at s, its payload is what was handed over *)
Definition handed (s : side) (k : N) (tr : list nevent) : Prop :=
  (length (reqk k (delivered tr s)) <= 1)%nat -> got_req tr s k = pmap carried (reqk k (delivered tr s)).

Lemma handed_step n tr l s k : k mod 2 <> par s mod 2 -> NK n tr ->
  handed s k tr -> handed s k (tr ++ snd (net_step n l)).
Proof.
  intros Hp K IH. unfold handed. rewrite got_req_app, delivered_app, reqk_app, pmap_app, app_length. intro Hone.
  rewrite IH by lia. f_equal.
  destruct (net_step_stepped n l) as [l|s0 l _|s0 k0 f q o u _]; cbn [snd got_req delivered] in *; try reflexivity.
  rewrite !app_nil_r in *. destruct (side_eqb s0 s) eqn:Es; [|reflexivity]. apply side_eqb_eq in Es as ->.
  cbn [andb]. rewrite reqk_one in *. destruct ((fsid f =? k) && is_request_type f) eqn:E; [|reflexivity].
  apply andb_true_iff in E as [Ef Er]. apply N.eqb_eq in Ef. subst k. cbn [pmap].
  (* it is the first, so its id is free *)
  destruct (request_delivered (ep_of n s) f o u Er) as (p & -> & ->); [|reflexivity].
  apply (K s), length_zero_iff_nil; [exact Hp|]. cbn [length] in Hone. lia.
Qed.

(* props/C01.v C01_network_request_exactly_once, read there in the library's terms *)
Theorem network_request_exactly_once ls s k f :
  let tr := snd (net_run net_init ls) in
  k mod 2 <> par s mod 2 ->
  reqk k (nwire tr (other s)) = [f] -> In f (delivered tr s) ->
  exists p, carried f = Some p /\ got_req tr s k = [p].
Proof.
  cbn zeta. intros Hp Hw Hd.
  assert (handed s k (snd (net_run net_init ls))) as R.
  { apply (history_invariant (fun n tr => NK n tr /\ handed s k tr)); [split; [exact NK_init|intros _; reflexivity]|].
    intros n tr l [K H]. split; [apply NK_step; exact K|apply handed_step; assumption]. }
  (* f is a request on k, so among the request frames dispatched, which with those under way make up [f] *)
  destruct (proj1 (reqk_In k (nwire (snd (net_run net_init ls)) (other s)) f)) as (_ & Ef & Er); [rewrite Hw; left; reflexivity|].
  pose proof (proj2 (reqk_In k _ f) (conj Hd (conj Ef Er))) as Hin.
  rewrite (reqk_in_flight _ _ s k (run_in_flight ls)) in Hw. unfold handed in R.
  destruct (reqk k (delivered (snd (net_run net_init ls)) s)) as [|a [|b r]]; cbn [app] in Hw; [destruct Hin| |discriminate Hw].
  injection Hw as -> _. specialize (R (le_n 1)). cbn [pmap] in R.
  destruct f; try discriminate Er; eexists; (split; [reflexivity|exact R]).
Qed.
