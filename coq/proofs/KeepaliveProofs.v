From Coq Require Import ZArith List Lia.
From RSV Require Import model.Keepalive.
Import ListNotations.
Open Scope Z_scope.

Lemma echo_at_most_one f : (length (ka_echo f) <= 1)%nat.
Proof. destruct f; cbn; try lia. destruct respond; cbn; lia. Qed.

Fixpoint next_arrival (evs : list ev) : option Z :=
  match evs with
  | [] => None
  | Arrive t :: _ => Some t
  | Check _ :: r => next_arrival r
  end.

(* the premise of C15_no_false_timeout *)
Fixpoint covered (L last : Z) (evs : list ev) : Prop :=
  match evs with
  | [] => True
  | Arrive t :: r => t - last <= L /\ covered L t r
  | Check t :: r => (exists a, next_arrival r = Some a /\ t <= a /\ a - last <= L) /\ covered L last r
  end.

(* the premise of C15_detects: nothing arrives after s before the check at c *)
Fixpoint silent_until (s c : Z) (evs : list ev) : Prop :=
  match evs with
  | [] => True
  | Arrive t :: r => t <= s /\ silent_until s c r
  | Check t :: r => if t =? c then True else silent_until s c r
  end.

Lemma check_times_ge : forall ds t0 L, 0 <= L -> Forall (fun d => 0 <= d) ds ->
  Forall (fun c => t0 <= c) (check_times t0 L ds).
Proof.
  induction ds as [|d r IH]; intros t0 L HL HF; [constructor|].
  inversion HF; subst. cbn [check_times]. constructor; [lia|].
  eapply Forall_impl; [|apply IH; assumption]. cbn. intros; lia.
Qed.

(* The witness is the first check later than s + L: the instant before it (a check, or the start) is at most s + L. *)
Lemma check_within ds : forall t0 L delta s,
  Forall (fun d => d <= delta) ds -> t0 <= s + L ->
  (exists c, In c (check_times t0 L ds) /\ s + L < c) ->
  exists c, In c (check_times t0 L ds) /\ s + L < c <= s + 2 * L + delta.
Proof.
  induction ds as [|d r IH]; intros t0 L delta s HF Ht (c & Hin & Hc); [destruct Hin|].
  inversion HF as [|? ? Hd HF']; subst. cbn [check_times] in *.
  destruct (Z.ltb_spec (s + L) (t0 + L + d)) as [Hlt|Hge].
  - exists (t0 + L + d). split; [left; reflexivity|lia].
  - destruct Hin as [<-|Hin]; [lia|].
    destruct (IH _ L delta s HF' Hge) as (c' & Hin' & Hb); [exists c; split; assumption|].
    exists c'. split; [right; exact Hin'|exact Hb].
Qed.

Example detector_example :
  timeouts 2000000 0 [500000; 1000000; 1500000] [0; 0; 0; 0] = [4000000; 6000000; 8000000].
Proof. vm_compute. reflexivity. Qed.
