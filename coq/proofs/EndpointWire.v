(* C08: what the endpoint puts on the wire (XEnq effects of model/Endpoint.v). *)
From Coq Require Import List.
From RSV Require Import gen.GenConst model.Frame model.Fragmenter model.Endpoint proofs.EndpointObjects proofs.EndpointProofs.
Import ListNotations.
Open Scope N_scope.

Definition enqs (effs : list effect) : list frame :=
  flat_map (fun x => match x with XEnq f => [f] | _ => [] end) effs.

Lemma enqs_app a b : enqs (a ++ b) = enqs a ++ enqs b.
Proof. unfold enqs. apply flat_map_app. Qed.

Lemma enq_on_enqs sid effs : enq_on sid effs -> Forall (fun g => fsid g = sid) (enqs effs).
Proof. induction 1 as [|x r Hx _ IH]; [constructor|]. destruct x; try exact IH. constructor; assumption. Qed.

(* the PAYLOAD is the empty COMPLETE with which a responder that has no publisher closes its direction of a channel *)
Definition reaction_ok (f g : frame) : Prop :=
  fsid g = fsid f /\
  match g with
  | FError _ _ _ _ => True
  | FKeepalive s _ respond _ _ => s = CONNECTION_STREAM_ID /\ respond = false
  | FPayload _ _ fo co nx md d => fo = false /\ co = true /\ nx = false /\ md = [] /\ d = []
  | _ => False
  end.

Lemma obj_frame_enqs oid o f u : enqs (c_effs (fst (obj_frame oid o f u))) = [].
Proof. unfold obj_frame. destruct (o_kind o), f; split_ifs; reflexivity. Qed.

Lemma dispose_enqs oid o : enqs (snd (dispose oid o)) = [].
Proof. unfold dispose. destruct (o_kind o); split_ifs; reflexivity. Qed.

Lemma obj_setup_enqs oid o f hs : admits o (OnSetup f hs) -> Forall (reaction_ok f) (enqs (c_effs (obj_step oid o (OnSetup f hs)))).
Proof. intros (hp & ->). destruct f; try constructor. destruct hp, hs, complete; repeat constructor. Qed.

Lemma recv_dispatch_enqs e f o u : Forall (reaction_ok f) (enqs (snd (recv_dispatch e f o u))).
Proof.
  destruct (recv_dispatch_dispatched e f o u) as [oid ob _ _|ob hs _ Ha|called r Hr]; cbn [snd perform]; rewrite ?enqs_app.
  - (* the handler object of the stream answers nothing; an ERROR if handling raised *)
    change (enqs (c_effs (obj_step oid ob (OnFrame f u)))) with (enqs (c_effs (fst (obj_frame oid ob f u)))).
    rewrite obj_frame_enqs. destruct (snd (obj_frame oid ob f u)); repeat constructor.
  - exact (obj_setup_enqs _ ob f hs Ha).
  - (* the receiver's own answers *)
    assert (enqs (if called then handler_call f else []) = []) as -> by (destruct called; [destruct f|]; reflexivity).
    induction Hr as [|g r Hg _ IH]; [constructor|]. constructor; [|exact IH].
    destruct g; try contradiction; [destruct Hg as (A & B & C)|destruct Hg as [A _]]; repeat split; assumption.
Qed.

Theorem recv_frame_enqs e f o u : CWF (cachek e) -> Forall (reaction_ok f) (enqs (snd (recv_frame e f o u))).
Proof.
  intro C. unfold recv_frame. destruct (stray_fragment e f); [constructor|].
  destruct (is_fragmentable f); [|apply recv_dispatch_enqs].
  pose proof (cache_append_spec (cachek e) f C) as [_ Hs].
  destruct (cache_append (cachek e) f) as [c' [g| |]]; cbn [snd] in *; [|constructor|repeat constructor].
  (* a reassembled frame is on the stream of its fragments *)
  eapply Forall_impl; [|apply recv_dispatch_enqs]. intros x [A B]. split; [congruence|exact B].
Qed.

Theorem close_sends_nothing u e : enqs (snd (ep_step u e LClose)) = [].
Proof.
  cbn [ep_step]. apply (sweep_effects (fun x => enqs x = [])); [reflexivity| |intros; apply obj_frame_enqs|intros; apply dispose_enqs].
  intros a b Ha Hb. rewrite enqs_app, Ha, Hb. reflexivity.
Qed.

Definition on_own_stream (e : ep) (oid : nat) (effs : list effect) : Prop :=
  match nth_error (objs e) oid with
  | Some o => Forall (fun g => fsid g = o_sid o) (enqs effs)
  | None => effs = []
  end.

Definition label_oid (l : label) : option nat :=
  match l with
  | LInitialN oid _ _ | LSubscribe oid _ _ _ | LRequestN oid _ | LCancel oid | LFutCancel oid | LAppResolve oid _
  | LPubNext oid _ _ _ | LPubComplete oid | LPubError oid | LFutCb oid _ => Some oid
  | _ => None
  end.
