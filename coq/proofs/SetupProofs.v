From Coq Require Import ZArith List Lia Init.Byte.
From RSV Require Import gen.GenConst lib.Iter lib.Bytes model.Frame model.Setup.
Import ListNotations.
Open Scope N_scope.

Lemma gen_setup_constants :
  PROTOCOL_MAJOR_VERSION = 1 /\ PROTOCOL_MINOR_VERSION = 0 /\
  EC_UNSUPPORTED_SETUP = 2 /\ EC_REJECTED_SETUP = 3 /\ EC_REJECTED_RESUME = 4 /\ EC_INVALID_SETUP = 1.
Proof. repeat split; reflexivity. Qed.

Lemma setup_frame_wf c : wf_cfg c = true -> wf (setup_frame c) = true.
Proof.
  unfold wf_cfg, setup_frame, wf. intro W. destruct gen_setup_constants as (-> & -> & _).
  (* both sides are conjunctions of comparisons, which ZifyBool lets lia read *)
  destruct (setup_payload c) as [[md d]|]; cbn [fsid fmd]; unfold to_ms; change (lenN []) with 0; lia.
Qed.

(* wire ++ queue is the sequence of frames in the order they leave; SETUP is put at its head at the moment the
   connection becomes ready, and nothing has left before that moment *)
Definition Inv (s : conn) : Prop :=
  (ready s = false -> wire s = []) /\
  exists rest, ~ In TSetup rest /\ wire s ++ queue s = if ready s then TSetup :: rest else rest.

Lemma inv_step s l : Inv s -> Inv (cstep s l).
Proof.
  intro HI. pose proof HI as (Hw & rest & Hr & E). destruct l; cbn [cstep]; try exact HI.
  - unfold Inv. cbn [ready queue wire]. split; [exact Hw|]. exists (rest ++ [TOther n]). split.
    + intro Hin. apply in_app_or in Hin. destruct Hin as [Hin|[Hin|[]]]; [exact (Hr Hin)|discriminate].
    + rewrite app_assoc, E. destruct (ready s); reflexivity.
  - destruct (ready s) eqn:R; [exact HI|]. unfold Inv. cbn [ready queue wire]. rewrite (Hw eq_refl) in *.
    split; [discriminate|]. exists rest. split; [exact Hr|]. cbn [app] in *. congruence.
  - destruct (ready s) eqn:R, (queue s) as [|x r] eqn:Q; try exact HI. unfold Inv. cbn [ready queue wire].
    split; [discriminate|]. exists rest. split; [exact Hr|]. rewrite <- app_assoc. exact E.
Qed.

Lemma inv_first s : Inv s ->
  (wire s = [] \/ exists w, wire s = TSetup :: w /\ ~ In TSetup w) /\ (ready s = false -> wire s = []).
Proof.
  intros (Hw & rest & Hr & E). split; [|exact Hw]. destruct (ready s); [|left; apply Hw; reflexivity].
  destruct (wire s) as [|x w]; [left; reflexivity|right]. injection E as -> E.
  exists w. split; [reflexivity|]. intro Hin. apply Hr. rewrite <- E. apply in_or_app. left. exact Hin.
Qed.

Theorem setup_first ls :
  let s := crun ls in
  (wire s = [] \/ exists w, wire s = TSetup :: w /\ ~ In TSetup w) /\
  (ready s = false -> wire s = []).
Proof.
  apply inv_first, (fold_left_inv cstep Inv inv_step). split; [reflexivity|]. exists []. split; [intros []|reflexivity].
Qed.

Theorem server_accept_iff f pub raises denc mdenc md d sl :
  server_decision f pub raises = SAccept denc mdenc md d sl <->
  exists ign lease major minor ka ml,
    f = FSetup 0 ign lease major minor ka ml None mdenc denc md d /\
    (lease = true -> pub = true) /\ raises = false /\ sl = lease.
Proof.
  split.
  - destruct f; cbn [server_decision]; try discriminate.
    + change CONNECTION_STREAM_ID with 0. destruct (N.eqb_spec sid 0) as [->|]; cbn [negb]; [|discriminate].
      destruct resume; [discriminate|]. destruct lease, pub, raises; cbn; try discriminate;
        intro E; injection E as <- <- <- <- <-; repeat eexists; congruence.
    + destruct (negb _); discriminate.
  - intros (ign & lease & major & minor & ka & ml & -> & Hl & -> & ->). cbn [server_decision].
    change CONNECTION_STREAM_ID with 0. cbn [N.eqb negb].
    destruct lease; [rewrite (Hl eq_refl)|]; reflexivity.
Qed.

Theorem server_errors f pub raises sid code :
  server_decision f pub raises = SError sid code ->
  sid = 0 /\
  ((exists ign lease major minor ka ml tok mdenc denc md d,
      f = FSetup 0 ign lease major minor ka ml (Some tok) mdenc denc md d /\ code = EC_UNSUPPORTED_SETUP) \/
   (exists ign major minor ka ml mdenc denc md d,
      f = FSetup 0 ign true major minor ka ml None mdenc denc md d /\ pub = false /\ code = EC_UNSUPPORTED_SETUP) \/
   (exists ign lease major minor ka ml mdenc denc md d,
      f = FSetup 0 ign lease major minor ka ml None mdenc denc md d /\ (lease = true -> pub = true) /\
      raises = true /\ code = EC_REJECTED_SETUP) \/
   (exists ign major minor tok ls fc, f = FResume 0 ign major minor tok ls fc /\ code = EC_REJECTED_RESUME)).
Proof.
  destruct f; cbn [server_decision]; try discriminate; change CONNECTION_STREAM_ID with 0.
  - destruct (N.eqb_spec sid0 0) as [->|]; cbn [negb]; [|discriminate].
    destruct resume as [tok|].
    + intro E. injection E as <- <-. split; [reflexivity|]. left. repeat eexists.
    + destruct lease, pub, raises; cbn; try discriminate; intro E; injection E as <- <-; (split; [reflexivity|]).
      * right. right. left. repeat eexists; congruence.
      * right. left. repeat eexists.
      * right. left. repeat eexists.
      * right. right. left. repeat eexists; congruence.
      * right. right. left. repeat eexists; congruence.
  - destruct (N.eqb_spec sid0 0) as [->|]; cbn [negb]; [|discriminate].
    intro E. injection E as <- <-. split; [reflexivity|]. right. right. right. repeat eexists.
Qed.

Example cfg_example :
  wf_cfg {| ka_us := 500000; ml_us := 600000000; honor_lease := false; md_enc := [x61]; d_enc := [x62]; setup_payload := None |} = true.
Proof. reflexivity. Qed.
