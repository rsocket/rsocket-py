(* Objects keep their kind and their stream over every atomic section: an instance of the elem / trans scheme. *)
From Coq Require Import NArith List.
From RSV Require Import model.Endpoint proofs.EndpointObjects proofs.EndpointProofs.

Definition same_kind (e e' : ep) : Prop :=
  forall oid o, nth_error (objs e) oid = Some o ->
    exists o', nth_error (objs e') oid = Some o' /\ o_kind o' = o_kind o /\ o_sid o' = o_sid o.

Lemma same_kind_refl e : same_kind e e.
Proof. intros oid o H. exists o. auto. Qed.

Lemma same_kind_trans a b c : same_kind a b -> same_kind b c -> same_kind a c.
Proof.
  intros H1 H2 oid o Ho. destruct (H1 oid o Ho) as (o1 & A & B & C). destruct (H2 oid o1 A) as (o2 & D & E & F).
  exists o2. repeat split; congruence.
Qed.

Lemma elem_same_kind sid e x e' : elem sid e x e' -> same_kind e e'.
Proof.
  intros H j x0 Hj. destruct (elem_at_object j _ _ _ _ H) as [o i Ho _ _ _ _ _ Ho'|k hp Hn _ _|Hsame _]; [|congruence|].
  - exists (c_obj (obj_step j o i)). replace x0 with o by congruence. split; [exact Ho'|apply obj_step_same].
  - exists x0. rewrite Hsame. auto.
Qed.

Lemma trans_same_kind (S : N -> Prop) e x e' : trans S e x e' -> same_kind e e'.
Proof.
  induction 1 as [|sid e x e1 y e2 _ He _ IH]; [apply same_kind_refl|].
  exact (same_kind_trans _ _ _ (elem_same_kind _ _ _ _ He) IH).
Qed.

Theorem step_same_kind u e l : Inv e -> same_kind e (fst (ep_step u e l)).
Proof. intro I. exact (trans_same_kind _ _ _ _ (step_trans u e l I)). Qed.
