From Coq Require Import ZArith List Lia.
From RSV Require Import model.Lease.
Import ListNotations.
Open Scope Z_scope.

(* a lease that will never again allow a request *)
Definition dead (l : lease) (t : Z) : Prop := lcreated l + lttl l <= t \/ ln l <= lcount l.

Definition remaining (l : lease) : Z := Z.max 0 (ln l - lcount l).

Lemma allowed_cases l t : exists l',
  allowed l t = (true, l') /\ ~ dead l t /\ remaining l' + 1 = remaining l \/
  allowed l t = (false, l') /\ dead l t /\ dead l' t /\ remaining l' = remaining l.
Proof.
  unfold allowed, dead, remaining.
  destruct (Z.leb_spec (lcreated l + lttl l) t); [|destruct (Z.ltb_spec (ln l) (lcount l + 1))]; cbn [negb];
    eexists; first [left; split; [reflexivity|]|right; split; [reflexivity|]]; cbn; lia.
Qed.

Lemma drain_spec now : forall q l, exists s q' l', drain q l now = (s, q', l') /\
  s ++ q' = q /\ Z.of_nat (length s) + remaining l' = remaining l /\
  (s <> [] -> ~ dead l now) /\ (q' <> [] -> dead l' now).
Proof.
  induction q as [|id r IH]; intro l; cbn [drain].
  - exists [], [], l. repeat split; congruence.
  - destruct (allowed_cases l now) as (l1 & [(-> & L & R)|(-> & D & D1 & R)]).
    + destruct (IH l1) as (s & q' & l' & -> & E & C & _ & Dq). exists (id :: s), q', l'.
      split; [reflexivity|]. split; [cbn [app]; congruence|].
      split; [cbn [length]; lia|]. split; [intros _; exact L|exact Dq].
    + exists [], (id :: r), l1. repeat split; try assumption; congruence.
Qed.

(* a potential: only a LEASE raises it *)
Definition credit (s : rq) : Z := Z.of_nat (length (sent s)) + remaining (cur s).

Lemma lstep_count s e :
  match e with
  | EReq _ now => credit (lstep s e) <= credit s
                  /\ ((length (sent s) < length (sent (lstep s e)))%nat -> now < lcreated (cur s) + lttl (cur s))
  | ELease n ttl now => credit (lstep s e) <= Z.of_nat (length (sent s)) + Z.max 0 n
                  /\ ((length (sent s) < length (sent (lstep s e)))%nat -> 0 < ttl)
  end.
Proof.
  unfold credit. destruct e as [id now|n ttl now]; cbn [lstep].
  - destruct (allowed_cases (cur s) now) as (l' & [(-> & L & R)|(-> & _ & _ & R)]).
    + cbn [sent cur]. rewrite app_length. cbn [length]. unfold dead in L. lia.
    + destruct (_ && _)%bool; cbn [sent cur]; lia.
  - destruct (drain_spec now (queue s) {| ln := n; lttl := ttl * 1000; lcreated := now; lcount := 0 |})
      as (snt & q' & l' & -> & _ & C & L & _).
    cbn [sent cur]. rewrite app_length. unfold remaining at 2 in C. cbn [ln lcount] in C. split; [lia|].
    intro Hlt. unfold dead in L. cbn [ln lcount lcreated lttl] in L. destruct snt; [cbn in Hlt; lia|]. specialize (L ltac:(discriminate)). lia.
Qed.

Definition no_lease (evs : list lev) : Prop := Forall (fun e => match e with EReq _ _ => True | _ => False end) evs.

Lemma no_lease_count : forall evs s, no_lease evs -> credit (fold_left lstep evs s) <= credit s.
Proof.
  induction evs as [|e r IH]; intros s Hn; [apply Z.le_refl|].
  inversion Hn as [|? ? He Hn']; subst. destruct e as [id t|]; [|destruct He]. cbn [fold_left].
  pose proof (lstep_count s (EReq id t)) as [H1 _]. specialize (IH (lstep s (EReq id t)) Hn'). lia.
Qed.

(* the invariant behind FIFO: while a request waits the lease is dead, so none is sent past it *)
Definition J (s : rq) (t : Z) : Prop := queue s <> [] -> dead (cur s) t.

Lemma J_init t0 qm : J (rq_init t0 qm) t0.
Proof. intro H. destruct (H eq_refl). Qed.

Lemma J_mono s t t' : J s t -> t <= t' -> J s t'.
Proof. unfold J, dead. intros H Ht Hq. specialize (H Hq). lia. Qed.

Definition req_ids (evs : list lev) : list N :=
  concat (map (fun e => match e with EReq id _ => [id] | _ => [] end) evs).

Lemma req_ids_cons e r : req_ids (e :: r) = req_ids [e] ++ req_ids r.
Proof. unfold req_ids. cbn [map concat]. rewrite app_nil_r. reflexivity. Qed.

Inductive sublist {A} : list A -> list A -> Prop :=
| sub_nil : sublist [] []
| sub_skip x a b : sublist a b -> sublist a (x :: b)
| sub_keep x a b : sublist a b -> sublist (x :: a) (x :: b).

Lemma sublist_refl {A} (l : list A) : sublist l l.
Proof. induction l; constructor; assumption. Qed.
Lemma sublist_nil_l {A} (l : list A) : sublist [] l.
Proof. induction l; constructor; assumption. Qed.

Lemma sublist_app {A} (a b c d : list A) : sublist a b -> sublist c d -> sublist (a ++ c) (b ++ d).
Proof. intros H1 H2. induction H1; cbn [app]; [exact H2|apply sub_skip; assumption|apply sub_keep; assumption]. Qed.

(* the statement of [fifo_run] for a single event, with the invariant *)
Lemma lstep_fifo s e : J s (lev_time e) ->
  J (lstep s e) (lev_time e) /\ qmax (lstep s e) = qmax s /\
  exists kept, sent (lstep s e) ++ queue (lstep s e) = sent s ++ queue s ++ kept /\ sublist kept (req_ids [e]) /\
               (qmax s = 0%nat -> kept = req_ids [e] /\ refused (lstep s e) = refused s).
Proof.
  unfold J. intro HJ. destruct e as [id now|n ttl now]; cbn [lev_time lstep req_ids map concat app] in *.
  - destruct (allowed_cases (cur s) now) as (l' & [(-> & L & _)|(-> & _ & D & _)]).
    + destruct (queue s) eqn:Eq; [|destruct L; apply HJ; discriminate]. cbn [sent queue refused qmax].
      split; [congruence|]. split; [reflexivity|]. exists [id]. rewrite app_nil_r. repeat split. apply sublist_refl.
    + destruct (Nat.eqb_spec (qmax s) 0) as [|Hq]; cbn [negb andb]; [|destruct (Nat.leb _ _)];
        cbn [sent queue refused qmax cur]; (split; [intros _; exact D|]); (split; [reflexivity|]).
      * exists [id]. repeat split. apply sublist_refl.
      * exists []. rewrite app_nil_r. split; [reflexivity|]. split; [apply sublist_nil_l|contradiction].
      * exists [id]. repeat split. apply sublist_refl.
  - destruct (drain_spec now (queue s) {| ln := n; lttl := ttl * 1000; lcreated := now; lcount := 0 |})
      as (snt & q' & l' & -> & E & _ & _ & D).
    cbn [sent queue refused qmax cur]. split; [exact D|]. split; [reflexivity|].
    exists []. rewrite <- E, !app_nil_r, app_assoc. repeat split. constructor.
Qed.

Fixpoint sorted_from (t : Z) (evs : list lev) : Prop :=
  match evs with [] => True | e :: r => t <= lev_time e /\ sorted_from (lev_time e) r end.

Theorem fifo_run : forall evs s t, J s t -> sorted_from t evs ->
  let s' := fold_left lstep evs s in
  exists kept, sent s' ++ queue s' = sent s ++ queue s ++ kept /\ sublist kept (req_ids evs) /\
               (qmax s = 0%nat -> kept = req_ids evs /\ refused s' = refused s).
Proof.
  induction evs as [|e r IH]; intros s t HJ Hs; cbn [fold_left].
  - exists []. rewrite app_nil_r. repeat split. constructor.
  - destruct Hs as [Ht Hs]. destruct (lstep_fifo s e (J_mono s t _ HJ Ht)) as (HJ2 & Hq & k1 & F1 & F2 & F3).
    destruct (IH (lstep s e) (lev_time e) HJ2 Hs) as (k2 & I1 & I2 & I3). cbv zeta in *. rewrite Hq in I3.
    exists (k1 ++ k2). rewrite I1, app_assoc, F1, <- !app_assoc, req_ids_cons.
    split; [reflexivity|]. split; [apply sublist_app; assumption|].
    intro Hz. destruct (F3 Hz) as [-> <-], (I3 Hz) as [-> ->]. split; reflexivity.
Qed.

Example lease_example :
  sent (lrun 0 0 [EReq 1%N 10; EReq 3%N 20; ELease 1 1000 30; EReq 5%N 40; ELease 5 1 50; EReq 7%N 2000]) = [1%N; 3%N; 5%N]
  /\ queue (lrun 0 0 [EReq 1%N 10; EReq 3%N 20; ELease 1 1000 30; EReq 5%N 40; ELease 5 1 50; EReq 7%N 2000]) = [7%N].
Proof. vm_compute. split; reflexivity. Qed.
