From Coq Require Import List.
From RSV Require Import model.Frame model.Endpoint proofs.EndpointObjects proofs.EndpointWire.
Open Scope N_scope.

(* which application-side sections exist for which kind of handler object (what the API hands out: an awaitable for
   request-response; a Publisher/Subscription for streams and channels; the responder's future / publisher) *)
Definition label_fits (l : label) (k : hkind) : bool :=
  match l, k with
  | LInitialN _ _ _, (KRSReq | KChanReq) => true
  | LSubscribe _ _ _ _, (KRSReq | KChanReq) => true
  | LRequestN _ _, (KRSReq | KChanReq | KChanResp) => true
  | LCancel _, (KRSReq | KChanReq | KChanResp) => true
  | LFutCancel _, KRRReq => true
  | LFutCb _ _, (KRRReq | KRRResp) => true
  | LAppResolve _ _, KRRResp => true
  | (LPubNext _ _ _ _ | LPubComplete _ | LPubError _), (KRSResp | KChanReq | KChanResp) => true
  | _, _ => false
  end.

Definition kind_allows (k : hkind) (g : frame) : bool :=
  match k, g with
  | KRRReq, (FRequestResponse _ _ _ _ _ | FCancel _ _) => true
  | KRSReq, (FRequestStream _ _ _ _ _ _ | FRequestN _ _ _ | FCancel _ _) => true
  | KChanReq, (FRequestChannel _ _ _ _ _ _ _ | FRequestN _ _ _ | FCancel _ _ | FPayload _ _ _ _ _ _ _ | FError _ _ _ _) => true
  | KRRResp, (FPayload _ _ _ _ _ _ _ | FError _ _ _ _) => true
  | KRSResp, (FPayload _ _ _ _ _ _ _ | FError _ _ _ _) => true
  | KChanResp, (FPayload _ _ _ _ _ _ _ | FError _ _ _ _ | FRequestN _ _ _ | FCancel _ _) => true
  | _, _ => false
  end.

Lemma obj_local_types oid o l : label_fits l (o_kind o) = true ->
  Forall (fun g => kind_allows (o_kind o) g = true) (enqs (c_effs (obj_step oid o (OnLocal l)))).
Proof.
  intro Hf. cbn [obj_step]. unfold obj_local.
  destruct l, (o_kind o); try discriminate Hf; try destruct r; split_ifs; repeat constructor.
Qed.
