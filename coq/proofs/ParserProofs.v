From Coq Require Import ZArith List Lia Init.Byte.
From RSV Require Import lib.Bytes model.Frame model.Parser proofs.FrameProofs.
Import ListNotations.
Open Scope N_scope.

Lemma split_frame_iff buf body rest : split_frame buf = Some (body, rest) <->
  exists hd, buf = hd ++ body ++ rest /\ lenN hd = 3 /\ dec hd = lenN body.
Proof.
  unfold split_frame. split.
  - destruct (N.ltb_spec (lenN buf) 3) as [|H3]; [discriminate|].
    destruct (N.ltb_spec (lenN buf) (dec (takeN buf 3) + 3)) as [|Hl]; [discriminate|]. intros [= <- <-].
    exists (takeN buf 3). rewrite !takeN_dropN, !lenN_takeN, lenN_dropN. repeat split; lia.
  - intros (hd & -> & H3 & Hd).
    rewrite !lenN_app, (takeN_app_len hd), (dropN_app_len hd), Hd, takeN_app_exact, dropN_app_exact by exact H3.
    destruct (N.ltb_spec (lenN hd + (lenN body + lenN rest)) 3); [lia|].
    destruct (N.ltb_spec (lenN hd + (lenN body + lenN rest)) (lenN body + 3)); [lia|reflexivity].
Qed.

(* a frame takes its length field with it: what makes the loop terminate *)
Lemma split_frame_some buf body rest : split_frame buf = Some (body, rest) -> (length rest + 3 <= length buf)%nat.
Proof.
  intro H. apply split_frame_iff in H. destruct H as (hd & -> & H3 & _). rewrite !app_length. unfold lenN in H3. lia.
Qed.

Lemma frames_ind (P : list byte -> Prop) :
  (forall buf, (forall body rest, split_frame buf = Some (body, rest) -> P rest) -> P buf) -> forall buf, P buf.
Proof.
  intros H buf. induction buf as [buf IH] using (induction_ltof1 _ (@length byte)). apply H.
  intros body rest Es. apply IH. unfold ltof. pose proof (split_frame_some _ _ _ Es). lia.
Qed.

Lemma split_frame_app a b body rest : split_frame a = Some (body, rest) ->
  split_frame (a ++ b) = Some (body, rest ++ b).
Proof. rewrite !split_frame_iff. intros (hd & -> & H). exists hd. rewrite <- !app_assoc. auto. Qed.

Lemma split_frame_delimit body rest : lenN body < 2 ^ 24 ->
  split_frame (delimit body ++ rest) = Some (body, rest).
Proof.
  intro Hl. apply split_frame_iff. exists (be 3 (lenN body)). unfold delimit. rewrite <- app_assoc, lenN_be.
  repeat split. apply dec_be_small. exact Hl.
Qed.

Section P.
  Variable decode : bytes -> dres.
  Notation drain := (drain decode).
  Notation drain_all := (drain_all decode).
  Notation feed_all := (feed_all decode).

  Lemma drain_fuel2 : forall f1 f2 buf, (length buf <= f1)%nat -> (length buf <= f2)%nat ->
    drain f1 buf = drain f2 buf.
  Proof.
    induction f1 as [|k IH]; intros f2 buf H1 H2.
    - destruct buf; [|cbn in H1; lia]. destruct f2; reflexivity.
    - destruct f2 as [|k2].
      + destruct buf; [|cbn in H2; lia]. reflexivity.
      + cbn [Parser.drain]. destruct (split_frame buf) as [[body rest]|] eqn:Es; [|reflexivity].
        pose proof (split_frame_some _ _ _ Es) as Hr.
        rewrite (IH k2 rest) by lia. reflexivity.
  Qed.

  Lemma drain_fuel fuel buf : (length buf <= fuel)%nat -> drain fuel buf = drain_all buf.
  Proof. intro H. unfold Parser.drain_all. apply drain_fuel2; lia. Qed.

  Lemma drain_all_unfold buf :
    drain_all buf = match split_frame buf with
                    | None => ([], buf)
                    | Some (body, rest) => let (out, r) := drain_all rest in (items_of (decode body) ++ out, r)
                    end.
  Proof.
    unfold Parser.drain_all at 1. destruct (length buf) as [|n] eqn:El.
    - destruct buf; [|discriminate]. reflexivity.
    - cbn [Parser.drain]. destruct (split_frame buf) as [[body rest]|] eqn:Es; [|reflexivity].
      pose proof (split_frame_some _ _ _ Es) as Hr. rewrite drain_fuel by lia. reflexivity.
  Qed.

  (* the compositional law behind chunking independence *)
  Lemma drain_app a b :
    drain_all (a ++ b) =
      let (o1, r) := drain_all a in let (o2, r') := drain_all (r ++ b) in (o1 ++ o2, r').
  Proof.
    induction a as [a IH] using frames_ind. rewrite (drain_all_unfold a).
    destruct (split_frame a) as [[body rest]|] eqn:Es.
    - rewrite (drain_all_unfold (a ++ b)), (split_frame_app _ b _ _ Es), (IH _ _ eq_refl).
      destruct (drain_all rest) as [o1 r]. destruct (drain_all (r ++ b)) as [o2 r'].
      rewrite app_assoc. reflexivity.
    - cbn [app]. destruct (drain_all (a ++ b)). reflexivity.
  Qed.

  Lemma residual_incomplete buf : split_frame (snd (drain_all buf)) = None.
  Proof.
    induction buf as [buf IH] using frames_ind. rewrite drain_all_unfold.
    destruct (split_frame buf) as [[body rest]|] eqn:Es; [|exact Es].
    specialize (IH _ _ eq_refl). destruct (drain_all rest). exact IH.
  Qed.

  Lemma feed_all_is_drain : forall cs st, split_frame st = None ->
    feed_all st cs = drain_all (st ++ concat cs).
  Proof.
    induction cs as [|c cs IH]; intros st Hst; cbn [Parser.feed_all concat].
    - rewrite app_nil_r, drain_all_unfold, Hst. reflexivity.
    - unfold Parser.feed. rewrite app_assoc.
      rewrite (drain_app (st ++ c) (concat cs)).
      pose proof (residual_incomplete (st ++ c)) as Hres.
      destruct (drain_all (st ++ c)) as [o1 st1]. cbn [snd] in Hres.
      rewrite (IH st1 Hres). destruct (drain_all (st1 ++ concat cs)). reflexivity.
  Qed.

  Theorem feed_all_spec cs : feed_all [] cs = drain_all (concat cs).
  Proof. rewrite feed_all_is_drain by reflexivity. reflexivity. Qed.

  Theorem drain_delimited : forall bodies tail, Forall (fun b => lenN b < 2 ^ 24) bodies ->
    drain_all (concat (map delimit bodies) ++ tail) =
      let (o, r) := drain_all tail in (concat (map (fun b => items_of (decode b)) bodies) ++ o, r).
  Proof.
    induction bodies as [|b bs IH]; intros tail HF; cbn [map concat app].
    - destruct (drain_all tail). reflexivity.
    - inversion HF as [|? ? Hb HF']; subst. rewrite <- app_assoc.
      rewrite drain_all_unfold, split_frame_delimit by exact Hb.
      rewrite IH by exact HF'. destruct (drain_all tail) as [o r]. rewrite <- app_assoc. reflexivity.
  Qed.

  Theorem prefix_outputs a b : exists o2, fst (drain_all (a ++ b)) = fst (drain_all a) ++ o2.
  Proof.
    rewrite (drain_app a b).
    destruct (drain_all a) as [o1 r]. destruct (drain_all (r ++ b)) as [o2 r']. exists o2. reflexivity.
  Qed.

  Theorem drain_residual_short : forall n buf, (length buf <= n)%nat -> (length (snd (drain_all buf)) <= length buf)%nat.
  Proof.
    intros _ buf _. induction buf as [buf IH] using frames_ind. rewrite drain_all_unfold.
    destruct (split_frame buf) as [[body rest]|] eqn:Es; [|cbn; lia].
    pose proof (split_frame_some _ _ _ Es) as Hr.
    specialize (IH _ _ eq_refl). destruct (drain_all rest). cbn [snd] in *. lia.
  Qed.

  Theorem msg_empty_guarded fuel : (1 <= fuel)%nat -> msg_feed decode true fuel [] [] = Some ([], []).
  Proof. intro Hf. destruct fuel; [lia|]. reflexivity. Qed.
End P.

Lemma drain_terminates : forall decode fuel buf, (length buf <= fuel)%nat ->
  drain decode fuel buf = drain_all decode buf /\ split_frame (snd (drain_all decode buf)) = None.
Proof.
  intros decode fuel buf H. split; [apply drain_fuel; exact H|apply residual_incomplete].
Qed.

Lemma valid_frames bk fs : Forall (fun f => wf f = true /\ lenN (encode f) < 2 ^ 24) fs ->
  drain_all (decode bk) (concat (map (fun f => delimit (encode f)) fs)) = (map (fun f => IFrame (norm f)) fs, []).
Proof.
  induction fs as [|f fs IH]; intro HF.
  - reflexivity.
  - inversion HF as [|? ? [Hw Hl] HF']; subst. cbn [map concat].
    rewrite (drain_all_unfold (decode bk)). rewrite split_frame_delimit by exact Hl.
    rewrite IH by exact HF'. rewrite decode_encode by exact Hw. reflexivity.
Qed.
