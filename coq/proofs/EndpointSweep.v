(* C11 / C07 / C10: the close sweep (stop_all_streams), entry by entry. *)
From Coq Require Import NArith List.
From RSV Require Import model.Endpoint proofs.EndpointObjects proofs.EndpointProofs.
Import ListNotations.
Open Scope N_scope.

Definition close_effects (ob : hobj) (oid : nat) : list effect :=
  match o_kind ob with
  | KRRReq => match o_fut ob with FPending => [XFut oid false [] []] | _ => [] end
  | KRRResp => match o_fut ob with FPending => [XAppFutCancel oid] | _ => [] end
  | KRSReq => if o_has_sub ob then [XCb oid SError] else []
  | KRSResp => [XPub oid PCancelOp]
  | KChanReq => (if o_recv ob then [] else if o_has_sub ob then [XCb oid SError] else [])
                ++ (if o_has_pub ob then [XPub oid PCancelOp] else [])
  | KChanResp => if o_has_pub ob then [XPub oid PCancelOp] else []
  end.

Definition sweep_of (e : ep) (entries : list (N * nat)) : list effect :=
  flat_map (fun p => match nth_error (objs e) (snd p) with Some ob => close_effects ob (snd p) | None => [] end) entries.

Lemma close_one_effects e sid oid :
  snd (close_one e sid oid) = match nth_error (objs e) oid with Some ob => close_effects ob oid | None => [] end.
Proof.
  destruct (nth_error (objs e) oid) as [o|] eqn:Ho; [|rewrite (close_one_none e sid oid Ho); reflexivity].
  rewrite (close_one_obj e sid oid o Ho). cbv zeta. cbn [snd]. clear Ho. destruct o as [k s ft rs st rc hp hs n].
  destruct k; [destruct ft|destruct ft|destruct hs| |destruct rc, hs|]; reflexivity.
Qed.

Theorem close_one_other_objs e sid oid j : j <> oid ->
  nth_error (objs (fst (close_one e sid oid))) j = nth_error (objs e) j.
Proof.
  intro Hj. destruct (nth_error (objs e) oid) as [o|] eqn:Ho; [|rewrite (close_one_none e sid oid Ho); reflexivity].
  rewrite (close_one_obj e sid oid o Ho). cbv zeta. cbn [fst finish_table objs]. rewrite !commit_nth_other by exact Hj. reflexivity.
Qed.

Lemma close_one_unregisters e sid oid k : k = sid \/ tget (table e) k = None ->
  tget (table (fst (close_one e sid oid))) k = None.
Proof.
  intro Hk. destruct (nth_error (objs e) oid) as [o|] eqn:Ho;
    [rewrite (close_one_obj e sid oid o Ho); cbv zeta|rewrite (close_one_none e sid oid Ho)];
    cbn [fst finish_table table]; rewrite tget_tremove, ?commit_table;
    (destruct Hk as [->| ->]; [rewrite N.eqb_refl|split_ifs]; reflexivity).
Qed.

(* entries that point at distinct objects are each judged by the state their object had when the sweep began *)
Lemma close_all_effects e : forall entries e0, NoDup (map snd entries) ->
  (forall s i, In (s, i) entries -> nth_error (objs e0) i = nth_error (objs e) i) ->
  snd (close_all e0 entries) = sweep_of e entries.
Proof.
  induction entries as [|[sid oid] r IH]; intros e0 Hnd Hobj; [reflexivity|].
  cbn [map snd] in Hnd. apply NoDup_cons_iff in Hnd. destruct Hnd as [Hni Hnd].
  rewrite close_all_cons. cbn [snd sweep_of flat_map]. rewrite close_one_effects, (Hobj _ _ (or_introl eq_refl)). f_equal.
  apply IH; [exact Hnd|]. intros s i Hin. rewrite <- (Hobj s i (or_intror Hin)). apply close_one_other_objs.
  intros ->. exact (Hni (in_map snd _ _ Hin)).
Qed.

(* the entries of the table point at distinct objects: the stream id can be read off the object *)
Lemma inv_oids_nodup e : Inv e -> NoDup (map snd (table e)).
Proof.
  intros [K O _]. apply (NoDup_map_inv (fun i => match nth_error (objs e) i with Some o => o_sid o | None => 0 end)).
  rewrite map_map, (map_ext_in _ fst); [exact K|]. intros [s i] Hin. cbn [fst snd]. destruct (O s i Hin) as (o & -> & <-). reflexivity.
Qed.

(* C11 / C07: the whole sweep.  Every stream registered when it starts, oldest registration first, is judged by the
   state its object is in at that moment. *)
Theorem close_sweep_complete u e : Inv e -> snd (ep_step u e LClose) = sweep_of e (rev (table e)).
Proof.
  intro I. cbn [ep_step]. apply close_all_effects; [|reflexivity].
  rewrite map_rev. apply NoDup_rev. apply inv_oids_nodup. exact I.
Qed.

Lemma close_all_unregisters : forall entries e k, In k (map fst entries) \/ tget (table e) k = None ->
  tget (table (fst (close_all e entries))) k = None.
Proof.
  induction entries as [|[sid oid] r IH]; intros e k Hk; [destruct Hk as [[]|Hk]; exact Hk|].
  rewrite close_all_cons. cbn [fst]. apply IH. pose proof (close_one_unregisters e sid oid k) as U.
  destruct Hk as [[<-|Hin]|Hk]; [right; apply U; left; reflexivity|left; exact Hin|right; apply U; right; exact Hk].
Qed.

Theorem close_empties u e : table (fst (ep_step u e LClose)) = [].
Proof.
  cbn [ep_step]. assert (forall k, tget (table (fst (close_all e (rev (table e))))) k = None) as H
    by (intro k; apply close_all_unregisters; rewrite map_rev, <- in_rev; apply tget_keys).
  destruct (table (fst _)) as [|[k v] t]; [reflexivity|]. specialize (H k). cbn [tget] in H. rewrite N.eqb_refl in H. discriminate H.
Qed.
