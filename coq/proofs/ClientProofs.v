From Coq Require Import NArith List Bool.
From RSV Require Import gen.GenConst model.Client.
Import ListNotations.
Open Scope N_scope.

Lemma client_first_id : CLIENT_FIRST_STREAM_ID = 1.
Proof. reflexivity. Qed.

Definition wire_ok (w : list wtag) : Prop :=
  w = [] \/ exists r, w = WSetup :: r /\ Forall (fun t => t <> WSetup) r.

Definition ids_of (w : list wtag) : list N :=
  concat (map (fun t => match t with WReq s => [s] | WSetup => [] end) w).

Fixpoint odd_run (n : nat) (from : N) : list N :=
  match n with O => [] | S k => from :: odd_run k (from + 2) end.

(* the last clause is what the induction needs: a request is written only behind a SETUP *)
Definition Inv (s : cl) : Prop :=
  wire_ok (wire s) /\ Forall (fun p => wire_ok (snd p)) (history s) /\
  (connected s && alive s = true -> wire s <> []).

Lemma inv_same s s' : Inv s -> wire s' = wire s -> history s' = history s ->
  (connected s' && alive s' = true -> connected s && alive s = true) -> Inv s'.
Proof. intros (A & B & C) Ew Eh H. unfold Inv. rewrite Ew, Eh. auto. Qed.

Lemma wire_ok_snoc w sid : wire_ok w -> w <> [] -> wire_ok (w ++ [WReq sid]).
Proof.
  intros [->|(r & -> & Hr)] Hne; [congruence|]. right. exists (r ++ [WReq sid]). split; [reflexivity|].
  apply Forall_app. split; [exact Hr|]. constructor; [discriminate|constructor].
Qed.

(* [true]: with the liveness reset of fix ddd04f9 (C17_no_liveness_reset_refuted runs the model without it) *)
Lemma inv_open s idx : Inv s -> Inv (open_connection true s idx).
Proof.
  intros (_ & B & _). split; [right; exists []; split; [reflexivity|constructor]|]. split; [exact B|discriminate].
Qed.

Lemma inv_closed s : Inv s -> Inv (connection_closed s).
Proof. intro H. apply (inv_same s); [exact H|reflexivity|reflexivity|discriminate]. Qed.

Lemma inv_reconnect s : Inv s -> Inv (do_reconnect true s).
Proof.
  intros (A & B & _). apply inv_open. split; [left; reflexivity|]. split; [|discriminate].
  destruct (connected s); cbn [history wire connection_closed]; apply Forall_app; (split; [exact B|]); (constructor; [exact A|constructor]).
Qed.

Lemma inv_step p s a : Inv s -> Inv (cstep true p s a).
Proof.
  intro H. destruct a; cbn [cstep].
  - destruct (Nat.eqb (conn s) 0); [apply inv_open|]; exact H.
  - destruct (Nat.eqb (conn s) 0); [exact H|]. destruct H as (A & B & C).
    split; [|split; [exact B|]]; cbn [wire connected alive]; destruct (connected s && alive s).
    + apply wire_ok_snoc; [exact A|exact (C eq_refl)].
    + exact A.
    + intros _ F. apply app_eq_nil in F. destruct F; discriminate.
    + discriminate.
  - destruct (_ && _ && _)%bool; [|exact H]. apply (inv_same s); [exact H|reflexivity|reflexivity|exact (fun E => E)].
  - destruct (connected s); [|exact H]. destruct (reconnect_on_close p); [apply inv_reconnect|]; apply inv_closed, H.
  - destruct (connected s && alive s); [|exact H]. destruct (reconnect_on_timeout p); [apply inv_reconnect|];
      (apply (inv_same s); [exact H|reflexivity|reflexivity|cbn [connected alive]; rewrite andb_false_r; discriminate]).
  - destruct (Nat.eqb (conn s) 0); [exact H|apply inv_reconnect, H].
  - destruct (connected s && alive s); [|exact H]. apply (inv_same s); [exact H|reflexivity|reflexivity|exact (fun E => E)].
Qed.

Example reconnect_example :
  let s := crun_client true {| reconnect_on_close := true; reconnect_on_timeout := true |}
             [AConnect; AReq; AReq; ALoss; AReq; AKaTimeout; AReq] in
  conn s = 3%nat /\ wire s = [WSetup; WReq 1] /\ failed s = [(0%nat, 1); (0%nat, 3); (1%nat, 1)] /\ closed s = [0%nat; 1%nat].
Proof. cbv. repeat split; reflexivity. Qed.
