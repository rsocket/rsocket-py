(* C01 with priority frames in the history: the premise [prio_off k] and an instance of it.  send_priority_frame puts a
   frame (SETUP, on stream 0) in front of everything queued.  A priority frame on ANOTHER stream changes nothing for stream
   k ([per_stream_off], SendQueueProofs.v), so the end-to-end theorems ([receive_queued], [rx_queued], PipelineProofs.v;
   C01_end_to_end_with_priority) hold for every stream no priority frame is queued on — in particular for every stream
   other than 0 on a client that connects (and reconnects) while requests are being made.  Only what is still queued for
   stream k itself has to be written for the conclusion about k. *)
From Coq Require Import NArith List Init.Byte.
From RSV Require Import gen.GenConst lib.Bytes model.Frame model.SendQueue proofs.SendQueueProofs.
Import ListNotations.
Open Scope N_scope.

Definition prio_off (k : N) (ls : list qlabel) : Prop :=
  Forall (fun l => match l with QPrio f => fsid f <> k | _ => True end) ls.

Lemma no_prio_off k ls : no_prio ls -> prio_off k ls.
Proof. intro H. eapply Forall_impl; [|exact H]. intros [f|f|] Hl; [exact I|destruct Hl|exact I]. Qed.

(* non-vacuity: a fragmented request on stream 1 partly written, then a priority frame on stream 0 (a KEEPALIVE in the
   place of SETUP), then the rest: stream 1 is written out, prio_off 1 holds and no_prio does not *)
Definition ex_prio : list qlabel :=
  [QEnq (FRequestResponse 1 false false [x01] (pat 1 0 150)); QSend;
   QPrio (FKeepalive 0 false true 0 []); QSend; QSend; QSend; QSend].
Example end_to_end_prio_example :
  let s := qrun (Some 64) true ex_prio in
  prio_off 1 ex_prio /\ ~ no_prio ex_prio /\ pending (q s) 1 = [] /\
  map ftype (wire s) = [FT_REQUEST_RESPONSE; FT_KEEPALIVE; FT_PAYLOAD; FT_PAYLOAD].
Proof.
  split; [repeat constructor; cbn; discriminate|]. split.
  - intro H. apply (no_prio_In 0 _ H (FKeepalive 0 false true 0 [])); [right; right; left|]; reflexivity.
  - vm_compute. split; reflexivity.
Qed.
