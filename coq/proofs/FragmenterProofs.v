From Coq Require Import ZArith List Bool Lia.
From RSV Require Import gen.GenConst lib.Bytes model.Frame model.Fragmenter.
Import ListNotations.
Open Scope N_scope.

(* The three phases of FrameFragmenter.__iter__ are one rule: metadata first, then data, every fragment but the
   last filled to its budget exactly.  [cut isf md d fs]: fs is such a cut of md and d.  The fragmenter's output is
   one ([fragments_cut]), and what C03 says of that output are properties of every cut. *)
Section Cut.
  Variables first next : N.

  Definition budget (isf : bool) : N := if isf then first else next.
  Definition fsize (g : frag) : N := lenN (fr_md g) + lenN (fr_d g).

  Inductive cut : bool -> bytes -> bytes -> list frag -> Prop :=
  | cut_last isf md d : lenN md + lenN d <= budget isf ->
      cut isf md d [{| is_first := isf; is_last := true; fr_md := md; fr_d := d |}]
  | cut_more isf m e md d fs : lenN m + lenN e = budget isf -> md = [] \/ e = [] -> 0 < lenN md + lenN d ->
      cut false md d fs ->
      cut isf (m ++ md) (e ++ d) ({| is_first := isf; is_last := false; fr_md := m; fr_d := e |} :: fs).

  Lemma cut_content isf md d fs : cut isf md d fs -> concat (map fr_md fs) = md /\ concat (map fr_d fs) = d.
  Proof. induction 1 as [|? ? ? ? ? ? _ _ _ _ [<- <-]]; cbn; rewrite ?app_nil_r; auto. Qed.

  Lemma cut_fits isf md d fs : cut isf md d fs -> Forall (fun g => fsize g <= budget (is_first g)) fs.
  Proof. induction 1; constructor; unfold fsize; cbn; auto; lia. Qed.

  Lemma cut_full isf md d fs : cut isf md d fs -> Forall (fun g => is_last g = false -> fsize g = budget (is_first g)) fs.
  Proof. induction 1; constructor; unfold fsize; cbn; auto. discriminate. Qed.

  Lemma cut_first isf md d fs : cut isf md d fs ->
    exists g r, fs = g :: r /\ is_first g = isf /\ Forall (fun h => is_first h = false) r.
  Proof.
    induction 1 as [|? ? ? ? ? ? _ _ _ _ (g & r & -> & Hg & Hr)]; eexists; eexists; (split; [reflexivity|]); cbn; auto.
  Qed.

  Lemma cut_last_flag isf md d fs : cut isf md d fs ->
    exists init l, fs = init ++ [l] /\ is_last l = true /\ Forall (fun g => is_last g = false) init.
  Proof.
    induction 1 as [|? ? ? ? ? ? _ _ _ _ (init & l & -> & Hl & Hi)].
    - eexists [], _. cbn. auto.
    - eexists (_ :: init), l. cbn. auto.
  Qed.

  (* the head of b is the one fragment that may carry both *)
  Lemma cut_md_first isf md d fs : cut isf md d fs ->
    exists a b, fs = a ++ b /\ Forall (fun g => fr_d g = []) a /\ Forall (fun g => fr_md g = []) (tl b).
  Proof.
    induction 1 as [|? m e ? ? fs _ [->| ->] _ H (a & b & -> & Ha & Hb)].
    - exists []. eexists. split; [reflexivity|]. cbn. auto.
    - (* no metadata left: none in any later fragment *)
      exists []. eexists. split; [reflexivity|]. cbn. split; [constructor|].
      apply cut_content in H. destruct H as [H _]. apply concat_nil_Forall, Forall_map in H. exact H.
    - eexists (_ :: a), b. split; [reflexivity|]. cbn. auto.
  Qed.

  Lemma cut_single isf md d fs : cut isf md d fs -> lenN md + lenN d <= budget isf -> exists g, fs = [g].
  Proof. destruct 1; intro; [eexists; reflexivity|]. rewrite !lenN_app in *. lia. Qed.

  Hypothesis first_pos : 0 < first.
  Hypothesis next_pos : 0 < next.

  (* cutting l at n > 0: the only facts about takeN / dropN the three phases need *)
  Lemma cut_at (l : bytes) n : 0 < n -> 0 < lenN l ->
    let a := takeN l n in let b := dropN l n in
    l = a ++ b /\ 0 < lenN a <= n /\ (0 < lenN b -> lenN a = n) /\ (length b < length l)%nat.
  Proof.
    intros Hn Hl. cbv zeta. pose proof (lenN_takeN l n). pose proof (lenN_dropN l n).
    split; [symmetry; apply takeN_dropN|]. unfold lenN in *. lia.
  Qed.

  Lemma data_phase_cut : forall fuel d, 0 < lenN d -> (length d < fuel)%nat ->
    cut false [] d (data_phase fuel first next false d).
  Proof.
    induction fuel as [|k IH]; intros d Hd Hf; [lia|]. cbn [data_phase]. cbv zeta.
    destruct (cut_at d next next_pos Hd) as (E & Ha & Hb & Hlen).
    rewrite !is_nil_lenN. destruct (N.eqb_spec (lenN (takeN d next)) 0) as [|_]; [lia|].
    destruct (N.eqb_spec (lenN (dropN d next)) 0) as [E0|E0]; cbn [app].
    - apply lenN_zero in E0. rewrite E0, app_nil_r in E. rewrite <- E in *. apply cut_last. cbn. lia.
    - rewrite E at 1. apply (cut_more false [] _ [] _); cbn; try lia; [auto|]. apply IH; lia.
  Qed.

  (* what [fragments] appends to phase 1's fragments (phase 2: the metadata tail lm with the first data, then phase 3),
     or nothing when nothing is left *)
  Definition rest_ok (fi : bool) (lm d : bytes) (tl : list frag) : Prop :=
    if (lenN lm =? 0) && (lenN d =? 0) then tl = [] else cut fi lm d tl.

  (* phase 1 followed by whatever suits what it left suits the whole *)
  Lemma md_phase_cut : forall fuel isf md d fs lm fi, (length md < fuel)%nat ->
    md_phase fuel first next isf md (is_nil d) = (fs, lm, fi) ->
    lenN lm < budget fi /\ forall tl, rest_ok fi lm d tl -> rest_ok isf md d (fs ++ tl).
  Proof.
    induction fuel as [|k IH]; intros isf md d fs lm fi Hf E; [lia|].
    cbn [md_phase] in E. cbv zeta in E. fold (budget isf) in E. assert (0 < budget isf) as Hsz by (destruct isf; assumption).
    destruct (N.eqb_spec (lenN md) 0) as [Hm|Hm].
    - (* no metadata (left) *)
      apply lenN_zero in Hm. subst md. injection E as <- <- <-. auto.
    - destruct (cut_at md (budget isf) Hsz ltac:(lia)) as (Em & Ha & Hb & Hlen).
      destruct (N.eqb_spec (lenN (takeN md (budget isf))) 0) as [|_]; [lia|].
      destruct (N.ltb_spec (lenN (takeN md (budget isf))) (budget isf)) as [Hlt|Hge].
      + (* a short tail: phase 2 sends it *)
        injection E as <- <- <-. assert (lenN (dropN md (budget isf)) = 0) as E0 by lia.
        apply lenN_zero in E0. rewrite E0, app_nil_r in Em. rewrite <- Em in Hlt |- *. auto.
      + (* a full fragment of metadata, the last one if nothing is left *)
        destruct (md_phase k first next false (dropN md (budget isf)) (is_nil d)) as [[fs' lm'] fi'] eqn:E'.
        injection E as <- <- <-. destruct (IH false (dropN md (budget isf)) d fs' lm' fi' ltac:(lia) E') as [I1 I2]. split; [exact I1|].
        intros tl Htl. specialize (I2 tl Htl). unfold rest_ok in I2 |- *.
        replace (lenN md =? 0) with false by lia. cbn [andb app]. rewrite Em at 1. rewrite !is_nil_lenN, andb_comm.
        destruct ((lenN (dropN md (budget isf)) =? 0) && (lenN d =? 0)) eqn:Elast.
        * assert (lenN (dropN md (budget isf)) = 0 /\ lenN d = 0) as [E0 Ed] by lia.
          apply lenN_zero in E0, Ed. rewrite I2, E0, Ed, app_nil_r. apply cut_last. cbn. lia.
        * apply (cut_more isf _ [] _ d); cbn; try lia; auto.
  Qed.

  Lemma tail_cut fi lm d : lenN lm < budget fi -> let n := budget fi - lenN lm in
    rest_ok fi lm d
      (if negb (is_nil lm) || negb (is_nil (takeN d n))
       then [{| is_first := fi; is_last := is_nil (dropN d n); fr_md := lm; fr_d := takeN d n |}]
            ++ (if is_nil (dropN d n) then [] else data_phase (S (length (dropN d n))) first next false (dropN d n))
       else []).
  Proof.
    intros Hlm n. unfold rest_ok. rewrite !is_nil_lenN.
    pose proof (lenN_takeN d n) as Ht. pose proof (lenN_dropN d n) as Hd. pose proof (takeN_dropN d n) as E.
    destruct ((lenN lm =? 0) && (lenN d =? 0)) eqn:Eb.
    - replace (lenN lm =? 0) with true by lia. replace (lenN (takeN d n) =? 0) with true by lia. reflexivity.
    - replace (negb (lenN lm =? 0) || negb (lenN (takeN d n) =? 0)) with true by lia.
      destruct (N.eqb_spec (lenN (dropN d n)) 0) as [E0|E0]; cbn [app].
      + apply lenN_zero in E0. rewrite E0, app_nil_r in E. rewrite E in *. apply cut_last. lia.
      + rewrite <- (app_nil_r lm) at 1. rewrite <- E at 1.
        apply cut_more; [lia|auto|cbn; lia|]. apply data_phase_cut; [lia|apply Nat.lt_succ_diag_r].
  Qed.

  Theorem fragments_cut md d : cut true md d (fragments first next md d).
  Proof.
    unfold fragments. destruct (is_nil md && is_nil d) eqn:Eb.
    - apply andb_true_iff in Eb. rewrite !is_nil_true in Eb. destruct Eb as [-> ->]. apply cut_last. cbn. lia.
    - rewrite !is_nil_lenN in Eb.
      destruct (md_phase (S (length md)) first next true md (is_nil d)) as [[mfs lm] fi] eqn:Em.
      destruct (md_phase_cut _ _ _ d _ _ _ (Nat.lt_succ_diag_r _) Em) as [Hlm Hcut].
      specialize (Hcut _ (tail_cut fi lm d Hlm)). unfold rest_ok in Hcut. rewrite Eb in Hcut.
      cbv zeta in *. fold (budget fi). destruct (_ || _); [|rewrite app_nil_r in Hcut]; exact Hcut.
  Qed.

End Cut.

Definition freqn (f : frame) : N :=
  match f with FRequestStream _ _ _ n _ _ | FRequestChannel _ _ _ _ n _ _ => n | _ => 0 end.

Lemma gen_fragment_tables :
  fragmentable_ids = [FT_PAYLOAD; FT_REQUEST_RESPONSE; FT_REQUEST_CHANNEL; FT_REQUEST_STREAM; FT_REQUEST_FNF] /\
  frame_header_length_table = [(FT_PAYLOAD, 6); (FT_REQUEST_RESPONSE, 6); (FT_REQUEST_FNF, 6); (FT_REQUEST_STREAM, 10); (FT_REQUEST_CHANNEL, 10)] /\
  MINIMUM_FRAGMENT_SIZE_BYTES = 64.
Proof. repeat split; reflexivity. Qed.

(* the function [frame_fragments] maps over [fragments] *)
Definition mk_frag (f : frame) (g : frag) : frame := mk_fragment f (is_first g) (Some (is_last g)) (fr_md g) (fr_d g).

Lemma mk_fmd f g : fmd (mk_frag f g) = fr_md g.
Proof. destruct f, g as [[] [] ? ?]; reflexivity. Qed.
Lemma mk_fdata f g : fdata (mk_frag f g) = fr_d g.
Proof. destruct f, g as [[] [] ? ?]; reflexivity. Qed.
Lemma mk_fsid f g : fsid (mk_frag f g) = fsid f.
Proof. destruct f, g as [[] [] ? ?]; reflexivity. Qed.
Lemma mk_fign f g : fign (mk_frag f g) = fign f.
Proof. destruct f, g as [[] [] ? ?]; reflexivity. Qed.
Lemma mk_ffollows f g : ffollows (mk_frag f g) = negb (is_last g).
Proof. destruct f, g as [[] [] ? ?]; reflexivity. Qed.
Lemma mk_fcomplete f g : fcomplete (mk_frag f g) = is_last g && fcomplete f.
Proof. destruct f, g as [[] [] ? ?]; reflexivity. Qed.
Lemma mk_freqn f g : freqn (mk_frag f g) = if is_first g then freqn f else 0.
Proof. destruct f, g as [[] [] ? ?]; reflexivity. Qed.
Lemma mk_md_only f g : md_only (mk_frag f g) = false.
Proof. destruct f, g as [[] [] ? ?]; reflexivity. Qed.
Lemma mk_fragmentable f g : is_fragmentable (mk_frag f g) = true.
Proof. destruct f, g as [[] [] ? ?]; reflexivity. Qed.
Lemma mk_middle f g : lenN (middle (mk_frag f g)) = if is_first g then header_length_of f - 6 else 0.
Proof. destruct f, g as [[] [] ? ?]; reflexivity. Qed.
(* only this one needs the frame to be of a fragmentable type: any other would be sent on as a PAYLOAD *)
Lemma mk_ftype f g : is_fragmentable f = true -> ftype (mk_frag f g) = if is_first g then ftype f else FT_PAYLOAD.
Proof. destruct f, g as [[] [] ? ?]; try discriminate; reflexivity. Qed.

(* norm touches the NEXT flag only: whatever does not read it sees the same frame *)
Lemma norm_blind {A} (obs : frame -> A) :
  (forall s i fo co nx nx' md d, obs (FPayload s i fo co nx md d) = obs (FPayload s i fo co nx' md d)) ->
  forall g, obs (norm g) = obs g.
Proof. intros H g. destruct g; try reflexivity. apply H. Qed.

#[export] Hint Rewrite mk_fmd mk_fdata mk_fsid mk_fign mk_ffollows mk_fcomplete mk_freqn mk_md_only mk_fragmentable mk_middle : frag_fields.
#[export] Hint Rewrite mk_ftype using assumption : frag_fields.
#[export] Hint Rewrite (norm_blind ftype) (norm_blind fsid) (norm_blind fign) (norm_blind ffollows) (norm_blind freqn)
  (norm_blind fmd) (norm_blind fdata) (norm_blind fcomplete) (norm_blind is_fragmentable) using reflexivity : frag_fields.

Lemma hdr_cases f : is_fragmentable f = true -> header_length_of f = 6 \/ header_length_of f = 10.
Proof. destruct f; cbn [is_fragmentable ftype]; intro H; try discriminate H; cbv; auto. Qed.

Lemma frs_cut f sz lenreq : is_fragmentable f = true -> MINIMUM_FRAGMENT_SIZE_BYTES <= sz ->
  exists fgs, frame_fragments f (Some sz) lenreq = map (mk_frag f) fgs /\
    cut (sz - header_length_of f - (if lenreq then 3 else 0)) (sz - 6 - (if lenreq then 3 else 0)) true (fmd f) (fdata f) fgs.
Proof.
  intros Hf Hsz. eexists. split; [reflexivity|]. destruct gen_fragment_tables as (_ & _ & Hm). rewrite Hm in Hsz.
  apply fragments_cut; destruct (hdr_cases f Hf), lenreq; lia.
Qed.

(* without a fragment size the frame goes out whole: the cut of a budget that fits it *)
Lemma frs_cut_any f size lenreq :
  is_fragmentable f = true -> match size with Some sz => MINIMUM_FRAGMENT_SIZE_BYTES <= sz | None => True end ->
  exists first next fgs, frame_fragments f size lenreq = map (mk_frag f) fgs /\ cut first next true (fmd f) (fdata f) fgs.
Proof.
  intros Hf Hs. destruct size as [sz|].
  - destruct (frs_cut f sz lenreq Hf Hs) as (fgs & E & C). eauto.
  - exists (lenN (fmd f) + lenN (fdata f)), 0, [{| is_first := true; is_last := true; fr_md := fmd f; fr_d := fdata f |}].
    split; [reflexivity|]. apply cut_last, N.le_refl.
Qed.

Definition frag_kind (f : frame) : bool := is_fragmentable f.

Lemma merge_fields cur x : is_fragmentable cur = true ->
  let m := merge cur x in
  ftype m = ftype cur /\ fsid m = fsid cur /\ fign m = fign cur /\ ffollows m = ffollows cur /\
  freqn m = freqn cur /\ fmd m = fmd cur ++ fmd x /\ fdata m = fdata cur ++ fdata x /\
  is_fragmentable m = true /\
  fcomplete m = (if (ftype cur =? FT_PAYLOAD) || (ftype cur =? FT_REQUEST_CHANNEL) then fcomplete x else false) /\
  fnext m = (if ftype cur =? FT_PAYLOAD then fnext x else false).
Proof.
  destruct cur; cbn [is_fragmentable ftype]; intro H; try discriminate H; cbn; repeat split; reflexivity.
Qed.

Lemma cache_get_remove c k k' : cache_get (cache_remove c k) k' = if k =? k' then None else cache_get c k'.
Proof.
  unfold cache_remove. induction c as [|[a v] r IH]; cbn [filter cache_get fst]; [destruct (k =? k'); reflexivity|].
  destruct (N.eqb_spec a k) as [->|Hak]; cbn [negb].
  - rewrite IH. destruct (N.eqb_spec k k'); reflexivity.
  - cbn [cache_get]. rewrite IH. destruct (N.eqb_spec a k') as [->|]; [|reflexivity].
    destruct (N.eqb_spec k k'); [congruence|reflexivity].
Qed.

Lemma cache_get_set c k v k' : cache_get (cache_set c k v) k' = if k =? k' then Some v else cache_get c k'.
Proof. unfold cache_set. cbn [cache_get]. rewrite cache_get_remove. destruct (k =? k'); reflexivity. Qed.

Theorem cache_append_local c f k : k <> fsid f -> cache_get (fst (cache_append c f)) k = cache_get c k.
Proof.
  intro Hk. unfold cache_append, builder.
  destruct (ffollows f), (cache_get c (fsid f)), (is_payload f); cbn [fst]; rewrite ?cache_get_set, ?cache_get_remove;
    try reflexivity; destruct (N.eqb_spec (fsid f) k); congruence.
Qed.

Theorem cache_append_determined c1 c2 f : cache_get c1 (fsid f) = cache_get c2 (fsid f) ->
  snd (cache_append c1 f) = snd (cache_append c2 f) /\
  cache_get (fst (cache_append c1 f)) (fsid f) = cache_get (fst (cache_append c2 f)) (fsid f).
Proof.
  intro H. unfold cache_append, builder. rewrite H.
  destruct (ffollows f), (cache_get c2 (fsid f)) eqn:E, (is_payload f); cbn [fst snd];
    rewrite ?cache_get_set, ?cache_get_remove, ?N.eqb_refl; split; congruence.
Qed.

Lemma cache_feed_cons c g r :
  cache_feed c (g :: r) = let (c1, a) := cache_append c g in let (c2, rs) := cache_feed c1 r in (c2, a :: rs).
Proof. reflexivity. Qed.

(* the continuation fragments of a cut, fed into a cache that holds the frame assembled so far *)
Lemma feed_cut f first next isf md d fs : cut first next isf md d fs -> isf = false ->
  forall cur, is_fragmentable cur = true ->
  exists R, cache_feed [(fsid f, cur)] (map norm (map (mk_frag f) fs)) =
              ([], map (fun _ => AAbsorbed) (removelast (map (mk_frag f) fs)) ++ [AFrame R]) /\
    ftype R = ftype cur /\ fsid R = fsid cur /\ fign R = fign cur /\ freqn R = freqn cur /\
    fmd R = fmd cur ++ md /\ fdata R = fdata cur ++ d /\
    fcomplete R = (if (ftype cur =? FT_PAYLOAD) || (ftype cur =? FT_REQUEST_CHANNEL) then fcomplete f else false).
Proof.
  induction 1 as [? md d _|? m e md d fs _ _ _ C IH]; intros -> cur Hk;
    cbn [map mk_frag mk_fragment is_first is_last fr_md fr_d norm]; rewrite cache_feed_cons;
    unfold cache_append, builder; cbn [ffollows fsid is_payload cache_get]; rewrite N.eqb_refl;
    match goal with |- context [merge cur ?x] => destruct (merge_fields cur x Hk) as (M1 & M2 & M3 & _ & M5 & M6 & M7 & M8 & M9 & _) end;
    cbn [fmd fdata fcomplete] in *.
  - eexists. split; [cbn; rewrite N.eqb_refl; reflexivity|]. repeat split; assumption.
  - unfold cache_set. cbn [cache_remove filter fst]. rewrite N.eqb_refl. cbn [negb].
    destruct (IH eq_refl _ M8) as (R & -> & R1 & R2 & R3 & R4 & R5 & R6 & R7).
    (* fs is not empty (cut_first), so removelast keeps this fragment, which was absorbed *)
    destruct (cut_first _ _ _ _ _ _ C) as (g & r & -> & _). exists R. split; [reflexivity|].
    rewrite R1, R2, R3, R4, R5, R6, R7, M1, M2, M3, M5, M6, M7, <- !app_assoc. repeat split; reflexivity.
Qed.

Lemma reassembly_cut f first next md d fgs : is_fragmentable f = true -> cut first next true md d fgs ->
  exists R, cache_feed [] (map norm (map (mk_frag f) fgs)) =
              ([], map (fun _ => AAbsorbed) (removelast (map (mk_frag f) fgs)) ++ [AFrame R]) /\
    ftype R = ftype f /\ fsid R = fsid f /\ fign R = fign f /\ freqn R = freqn f /\
    fmd R = md /\ fdata R = d /\ fcomplete R = fcomplete f.
Proof.
  intros Hf C. remember true as isf eqn:Ei. destruct C as [? md d _|? m e md d fs _ _ _ C]; subst isf;
    cbn [map]; rewrite cache_feed_cons; unfold cache_append, builder; autorewrite with frag_fields; cbn [is_last negb cache_get].
  - eexists. split; [reflexivity|]. autorewrite with frag_fields. repeat split; reflexivity.
  - unfold cache_set. cbn [cache_remove filter].
    edestruct (feed_cut f _ _ _ _ _ _ C eq_refl) as (R & -> & R1 & R2 & R3 & R4 & R5 & R6 & R7); [autorewrite with frag_fields; reflexivity|].
    destruct (cut_first _ _ _ _ _ _ C) as (g' & r & -> & _). exists R. split; [reflexivity|].
    rewrite R1, R2, R3, R4, R5, R6, R7. autorewrite with frag_fields. repeat split.
    (* left: COMPLETE, which of the fragmentable types only PAYLOAD and REQUEST_CHANNEL carry *)
    destruct f; try discriminate Hf; reflexivity.
Qed.

Section Reassembly.
  Variable f : frame.
  Variable sz : N.
  Variable lenreq : bool.
  Hypothesis Hfrag : is_fragmentable f = true.
  Hypothesis Hsz : MINIMUM_FRAGMENT_SIZE_BYTES <= sz.
  Let frs := frame_fragments f (Some sz) lenreq.

  (* C03_reassembly.  The returned frame keeps FOLLOWS set when there was more than one fragment; nothing reads that
     flag, and the statement leaves it out. *)
  Theorem reassembly :
    exists R, cache_feed [] (map norm frs) = ([], map (fun _ => AAbsorbed) (removelast frs) ++ [AFrame R]) /\
      ftype R = ftype f /\ fsid R = fsid f /\ fign R = fign f /\ freqn R = freqn f /\
      fmd R = fmd f /\ fdata R = fdata f /\ fcomplete R = fcomplete f.
  Proof.
    destruct (frs_cut f sz lenreq Hfrag Hsz) as (fgs & E & C). unfold frs. rewrite E. exact (reassembly_cut f _ _ _ _ _ Hfrag C).
  Qed.
End Reassembly.

(* F2 (known finding KF-C03-md-length-field): the bound "no longer than the configured size" is false
   of the code as it is: 58 bytes of metadata at size 64 without length prefix give a 67-byte frame *)
Definition f2_witness : frame := FPayload 1 false false false true (pat 3 0 58) [].

Example three_fragments :
  length (frame_fragments (FRequestStream 5 false false 7 (pat 3 0 60) (pat 9 0 100)) (Some 64) true) = 3%nat.
Proof. vm_compute. reflexivity. Qed.
