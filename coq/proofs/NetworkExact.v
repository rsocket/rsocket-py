(* C01 above the pipeline, the global no-loss statement: over a whole history of two connected endpoints, the payloads with
   content the application is given from a stream are EXACTLY the payloads with content the peer queued on it — provided
   the local party was still listening each time one arrived, and nothing of the stream is still under way.
   (proofs/NetworkProofs.v has the unconditional half: what is given is an in-order selection of what was queued.) *)
From Coq Require Import NArith List Bool.
From RSV Require Import lib.Bytes model.Frame model.Endpoint model.Network proofs.NetworkProofs.
Import ListNotations.
Open Scope N_scope.

(* the form in which the pipeline hands a frame to dispatch *)
Definition normal (f : frame) : Prop := on_wire f = f.

Lemma on_wire_idem f : on_wire (on_wire f) = on_wire f.
Proof. destruct f; reflexivity. Qed.

Lemma normal_map l : Forall normal (map on_wire l).
Proof. induction l as [|x l IH]; constructor; [apply on_wire_idem|exact IH]. Qed.

Lemma wire_normal tr s : Forall normal (nwire tr s).
Proof.
  induction tr as [|x tr IH]; [constructor|]. destruct x as [s' ? effs|s' ? effs]; cbn [nwire]; (apply Forall_app; split; [|exact IH]);
    (destruct (side_eqb s' s); [apply normal_map|constructor]).
Qed.

(* what is dispatched was queued by the peer *)
Lemma popped_normal n tr s k f q : in_flight n tr -> pop (inbox n s) k = Some (f, q) -> normal f.
Proof.
  intros L Hp. destruct (pop_spec _ _ _ _ Hp) as [Hs Hon].
  assert (In f (on_stream k (nwire tr (other s)))) as Hin.
  { rewrite (L s k), (Hon k). apply in_or_app. right. apply in_or_app. left. apply filter_In. split; [left; reflexivity|apply N.eqb_eq, Hs]. }
  apply filter_In in Hin. exact (proj1 (Forall_forall _ _) (wire_normal tr (other s)) f (proj1 Hin)).
Qed.

(* the endpoint is in a position to hand f's payload over.  No other frame type carries a payload for the application on
   a stream other than 0. *)
Definition hears (e : ep) (f : frame) : Prop :=
  match f with
  | FRequestResponse _ _ _ _ _ | FRequestFnf _ _ _ _ _ | FRequestStream _ _ _ _ _ _ | FRequestChannel _ _ _ _ _ _ _ =>
      tget (table e) (fsid f) = None
  | FPayload _ _ _ _ _ _ _ =>
      exists oid ob, tget (table e) (fsid f) = Some oid /\ nth_error (objs e) oid = Some ob /\ receptive ob = true
  | _ => False
  end.

Definition listens_at (n : net) (l : nlabel) (s : side) (k : N) : Prop :=
  match l with
  | NDeliver s' k' _ _ =>
      if side_eqb s' s && (k' =? k) then
        match pop (inbox n s) k with
        | Some (f, _) => match carried f with
                         | Some p => nonempty p = true -> hears (ep_of n s) f
                         | None => True
                         end
        | None => True
        end
      else True
  | NLocal _ _ => True
  end.

Fixpoint listening (n : net) (ls : list nlabel) (s : side) (k : N) : Prop :=
  match ls with
  | [] => True
  | l :: r => listens_at n l s k /\ listening (fst (net_step n l)) r s k
  end.

Definition wanted (l : list (bytes * bytes)) : list (bytes * bytes) := filter nonempty l.

Lemma wanted_app a b : wanted (a ++ b) = wanted a ++ wanted b.
Proof. apply filter_app. Qed.

Lemma heard_delivered e f o u p : fsid f <> 0 -> normal f -> carried f = Some p -> nonempty p = true -> hears e f ->
  app_payloads (snd (recv_dispatch e f o u)) = [p].
Proof.
  intros Hs Hn Hc Hne Hh.
  destruct f; try contradiction Hh; cbn [hears] in Hh.
  1-4: destruct (fun Er => request_delivered e _ o u Er Hh) as (p' & Hc' & ->); [reflexivity|congruence].
  (* PAYLOAD: in normal form NEXT = has content *)
  destruct Hh as (oid & ob & Ht & Ho & Hr). cbn [fsid] in *.
  unfold normal in Hn. cbn [on_wire] in Hn. injection Hn as Hnx. cbn [carried] in Hc. injection Hc as <-.
  unfold nonempty in Hne. cbn [fst snd] in Hne. rewrite Hne in Hnx. subst next.
  exact (proj1 (element_delivered e sid oid ob ign follows complete md d o u Hs Ht Ho Hr)).
Qed.

Lemma dispatch_exact e f o u : fsid f <> 0 -> normal f ->
  match carried f with Some p => nonempty p = true -> hears e f | None => True end ->
  wanted (app_payloads (snd (recv_dispatch e f o u))) = wanted (pmap carried [f]).
Proof.
  intros Hs Hn Hh. pose proof (heard_delivered e f o u) as Heard. cbn [pmap].
  destruct (dispatch_intact e f o u) as [Hd|(p & Hc & Hd)]; rewrite Hd; [|rewrite Hc; reflexivity].
  destruct (carried f) as [p|]; [|reflexivity]. unfold wanted. cbn [filter].
  destruct (nonempty p) eqn:Hne; [|reflexivity]. rewrite (Heard p Hs Hn eq_refl Hne (Hh eq_refl)) in Hd. discriminate Hd.
Qed.

Lemma step_exact n tr l s k : k <> 0 -> in_flight n tr -> listens_at n l s k ->
  wanted (got (snd (net_step n l)) s k) = wanted (pmap carried (on_stream k (delivered (snd (net_step n l)) s))).
Proof.
  intros Hk L. destruct (net_step_stepped n l) as [l|s0 l Hl|s0 k0 f q o u Hp]; cbn [snd got delivered]; intro HL; [reflexivity| |].
  - rewrite (local_no_payloads true _ l Hl). destruct (side_eqb s0 s); reflexivity.
  - rewrite !app_nil_r. destruct (side_eqb s0 s) eqn:Es; [|reflexivity]. apply side_eqb_eq in Es as ->.
    destruct (pop_spec _ _ _ _ Hp) as [Hs _]. cbn [andb app on_stream filter]. rewrite Hs.
    destruct (N.eqb_spec k0 k) as [->|]; [|reflexivity].
    cbn [listens_at] in HL. rewrite side_eqb_refl, N.eqb_refl, Hp in HL.
    apply dispatch_exact; [congruence|exact (popped_normal _ _ _ _ _ _ L Hp)|exact HL].
Qed.

(* props/C01.v C01_network_exactly_once, read there in the library's terms *)
Theorem network_exactly_once ls s k : k <> 0 -> listening net_init ls s k ->
  let r := net_run net_init ls in
  on_stream k (inbox (fst r) s) = [] ->
  wanted (got (snd r) s k) = wanted (pmap carried (on_stream k (nwire (snd r) (other s)))).
Proof.
  intros Hk HL. cbn zeta. intro Hd. rewrite (run_in_flight ls s k), Hd, app_nil_r.
  apply (run_invariant (fun n tr ls => listening n ls s k /\ in_flight n tr /\
                                       wanted (got tr s k) = wanted (pmap carried (on_stream k (delivered tr s)))))
    with (tr := []) (ls := ls).
  - intros n tr l r ([H1 H2] & L & E). split; [exact H2|]. split; [apply in_flight_step, L|].
    rewrite got_app, delivered_app, on_stream_app, pmap_app, !wanted_app, E. f_equal. exact (step_exact n tr l s k Hk L H1).
  - split; [exact HL|]. split; [intros [] j|]; reflexivity.
Qed.

(* a decidable form of the premise: corr/NetworkCorr.v counts with it, on the recorded histories of two real endpoints,
   how often the premises of the theorem are met *)
Definition hearsb (e : ep) (f : frame) : bool :=
  match f with
  | FRequestResponse _ _ _ _ _ | FRequestFnf _ _ _ _ _ | FRequestStream _ _ _ _ _ _ | FRequestChannel _ _ _ _ _ _ _ =>
      match tget (table e) (fsid f) with None => true | Some _ => false end
  | FPayload _ _ _ _ _ _ _ =>
      match tget (table e) (fsid f) with
      | Some oid => match nth_error (objs e) oid with Some ob => receptive ob | None => false end
      | None => false
      end
  | _ => false
  end.

Lemma hearsb_sound e f : hearsb e f = true -> hears e f.
Proof.
  unfold hearsb, hears. destruct f; try discriminate;
    try (destruct (tget (table e) _) eqn:Ht; [discriminate|reflexivity]).
  destruct (tget (table e) _) as [oid|] eqn:Ht; [|discriminate].
  destruct (nth_error (objs e) oid) as [ob|] eqn:Ho; [|discriminate].
  intro Hr. exists oid, ob. repeat split; assumption.
Qed.

Definition listens_atb (n : net) (l : nlabel) (s : side) (k : N) : bool :=
  match l with
  | NDeliver s' k' _ _ =>
      if side_eqb s' s && (k' =? k) then
        match pop (inbox n s) k with
        | Some (f, _) => match carried f with
                         | Some p => negb (nonempty p) || hearsb (ep_of n s) f
                         | None => true
                         end
        | None => true
        end
      else true
  | NLocal _ _ => true
  end.

Fixpoint listeningb (n : net) (ls : list nlabel) (s : side) (k : N) : bool :=
  match ls with
  | [] => true
  | l :: r => listens_atb n l s k && listeningb (fst (net_step n l)) r s k
  end.

Lemma listeningb_sound : forall ls n s k, listeningb n ls s k = true -> listening n ls s k.
Proof.
  induction ls as [|l ls IH]; intros n s k H; [exact I|]. cbn [listeningb] in H. apply andb_true_iff in H as [H1 H2].
  split; [|apply IH; exact H2]. clear H2 IH.
  destruct l as [s0 l|s0 k0 o u]; [exact I|]. cbn [listens_at listens_atb] in *.
  destruct (side_eqb s0 s && (k0 =? k)); [|exact I].
  destruct (pop (inbox n s) k) as [[f rest]|]; [|exact I].
  destruct (carried f) as [p|]; [|exact I].
  intro Hne. rewrite Hne in H1. cbn [negb orb] in H1. apply hearsb_sound. exact H1.
Qed.

Corollary network_exactly_once_b ls s k : k <> 0 -> listeningb net_init ls s k = true ->
  let r := net_run net_init ls in
  on_stream k (inbox (fst r) s) = [] ->
  wanted (got (snd r) s k) = wanted (pmap carried (on_stream k (nwire (snd r) (other s)))).
Proof. intros Hk H. apply network_exactly_once; [exact Hk|apply listeningb_sound; exact H]. Qed.

(* an empty payload is no element on the wire (on_wire): the statement above cannot speak about those; what it leaves
   out is exactly this *)
Lemma wanted_spec l p : In p (wanted l) <-> In p l /\ nonempty p = true.
Proof. unfold wanted. apply filter_In. Qed.
