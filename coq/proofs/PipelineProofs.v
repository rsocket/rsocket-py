(* C01: composition of the layer theorems — sender queue (C05), fragmenter and reassembly (C03), codec (C02),
   byte-stream parser (C04) — into one end-to-end statement about model/Pipeline.v. *)
From Coq Require Import NArith List Init.Byte.
From RSV Require Import gen.GenConst lib.Bytes model.Frame model.Parser model.Fragmenter model.SendQueue model.Pipeline proofs.FragmenterProofs proofs.ParserProofs proofs.SendQueueProofs proofs.EndpointProofs.
Import ListNotations.
Open Scope N_scope.

(* what "delivered intact" means for one frame: a fragmentable frame comes out with the same type, stream, IGNORE and
   COMPLETE flags, request-n, metadata and data (its FOLLOWS bit is reassembly residue nothing reads); any other frame
   comes out as it is *)
Definition delivered_as (f R : frame) : Prop :=
  if is_fragmentable f then
    ftype R = ftype f /\ fsid R = fsid f /\ fign R = fign f /\ freqn R = freqn f /\
    fmd R = fmd f /\ fdata R = fdata f /\ fcomplete R = fcomplete f
  else R = f.

Lemma norm_nonfrag f : is_fragmentable f = false -> norm f = f.
Proof. destruct f; try reflexivity. discriminate. Qed.

Lemma on_map_norm k l : on k (map norm l) = map norm (on k l).
Proof.
  induction l as [|x l IH]; [reflexivity|]. cbn [map]. rewrite !on_cons, (norm_blind fsid) by reflexivity.
  destruct (fsid x =? k); cbn [map]; rewrite IH; reflexivity.
Qed.

Lemma rx_cons c f r :
  rx c (f :: r) = (fst (rx (fst (rx_step c f)) r), snd (rx_step c f) ++ snd (rx (fst (rx_step c f)) r)).
Proof. cbn [rx]. destruct (rx_step c f) as [c1 o1]. cbn [fst snd]. destruct (rx c1 r). reflexivity. Qed.

Lemma rx_app : forall a b c, rx c (a ++ b) = (fst (rx (fst (rx c a)) b), snd (rx c a) ++ snd (rx (fst (rx c a)) b)).
Proof.
  induction a as [|f a IH]; intros b c; cbn [app].
  - cbn [rx fst snd app]. destruct (rx c b). reflexivity.
  - rewrite !rx_cons, IH. cbn [fst snd]. rewrite app_assoc. reflexivity.
Qed.

Lemma rx_step_spec c f : CWF c ->
  CWF (fst (rx_step c f)) /\ Forall (fun g => fsid g = fsid f) (snd (rx_step c f)).
Proof.
  intro W. unfold rx_step. destruct (is_fragmentable f); [|split; [exact W|repeat constructor]].
  pose proof (cache_append_spec c f W) as [W' Hs]. destruct (cache_append c f) as [c' a]. cbn [fst snd] in *.
  destruct a; cbn [fst snd]; split; try exact W'; repeat constructor. exact Hs.
Qed.

Lemma rx_cwf : forall fs c, CWF c -> CWF (fst (rx c fs)).
Proof. induction fs as [|f r IH]; intros c W; [exact W|]. rewrite rx_cons. apply IH, rx_step_spec, W. Qed.

Lemma rx_step_local c f k : fsid f <> k -> cache_get (fst (rx_step c f)) k = cache_get c k.
Proof.
  intro H. unfold rx_step. pose proof (cache_append_local c f k (not_eq_sym H)) as L.
  destruct (is_fragmentable f), (cache_append c f) as [c' []]; try reflexivity; exact L.
Qed.

Lemma rx_step_determined c1 c2 f : cache_get c1 (fsid f) = cache_get c2 (fsid f) ->
  snd (rx_step c1 f) = snd (rx_step c2 f) /\
  cache_get (fst (rx_step c1 f)) (fsid f) = cache_get (fst (rx_step c2 f)) (fsid f).
Proof.
  intro H. unfold rx_step. destruct (cache_append_determined c1 c2 f H) as [Da Dc]. destruct (is_fragmentable f); [|auto].
  destruct (cache_append c1 f) as [a1 r1], (cache_append c2 f) as [a2 r2]. cbn [fst snd] in *. subst r2. destruct r1; auto.
Qed.

Lemma rx_stream k : forall fs c1 c2, CWF c1 -> CWF c2 -> cache_get c1 k = cache_get c2 k ->
  on k (snd (rx c1 fs)) = snd (rx c2 (on k fs)) /\ cache_get (fst (rx c1 fs)) k = cache_get (fst (rx c2 (on k fs))) k.
Proof.
  induction fs as [|f r IH]; intros c1 c2 W1 W2 Hc; [split; [reflexivity|exact Hc]|].
  rewrite rx_cons, on_cons. cbn [fst snd]. destruct (rx_step_spec c1 f W1) as [W1' S1]. rewrite on_app, (on_same k _ _ S1).
  destruct (N.eqb_spec (fsid f) k) as [<-|Hne].
  - rewrite rx_cons. cbn [fst snd]. destruct (rx_step_determined c1 c2 f Hc) as [<- Ec].
    destruct (IH _ _ W1' (proj1 (rx_step_spec c2 f W2)) Ec) as [<- I2]. split; [reflexivity|exact I2].
  - apply IH; [exact W1'|exact W2|]. rewrite rx_step_local; assumption.
Qed.

Lemma rx_feed : forall fs c, Forall (fun g => is_fragmentable g = true) fs ->
  rx c fs = (fst (cache_feed c fs), flat_map (fun a => match a with AFrame g => [g] | _ => [] end) (snd (cache_feed c fs))).
Proof.
  induction fs as [|f r IH]; intros c H; [reflexivity|]. inversion H as [|? ? Hf Hr]; subst.
  rewrite rx_cons, (IH _ Hr). cbn [cache_feed]. unfold rx_step. rewrite Hf.
  destruct (cache_append c f) as [c1 []]; cbn [fst snd]; destruct (cache_feed c1 r); reflexivity.
Qed.

Lemma flat_absorbed {A} (l : list A) R :
  flat_map (fun a => match a with AFrame g => [g] | _ => [] end) (map (fun _ => AAbsorbed) l ++ [AFrame R]) = [R].
Proof. induction l as [|x l IH]; [reflexivity|exact IH]. Qed.

Lemma rx_one size lenreq f : size_ok size ->
  exists R, rx [] (map norm (emissions size lenreq f)) = ([], [R]) /\ delivered_as f R.
Proof.
  intro Hs. unfold emissions, delivered_as. destruct (is_fragmentable f) eqn:Hf.
  - destruct (frs_cut_any f size lenreq Hf Hs) as (first & next & fgs & -> & C).
    destruct (reassembly_cut f _ _ _ _ _ Hf C) as (R & HR & Hfields). exists R. split; [|exact Hfields].
    rewrite rx_feed, HR; [cbn [fst snd]; rewrite flat_absorbed; reflexivity|].
    apply Forall_map, Forall_map, Forall_forall. intros g _. autorewrite with frag_fields. reflexivity.
  - exists f. split; [|reflexivity]. cbn [map]. rewrite (norm_nonfrag f Hf). cbn [rx]. unfold rx_step. rewrite Hf. reflexivity.
Qed.

Lemma rx_frames size lenreq : size_ok size -> forall fs,
  exists Rs, rx [] (map norm (concat (map (emissions size lenreq) fs))) = ([], Rs) /\ Forall2 delivered_as fs Rs.
Proof.
  intros Hs fs. induction fs as [|f r (Rs & IH & IH2)]; [exists []; split; [reflexivity|constructor]|].
  destruct (rx_one size lenreq f Hs) as (R & H1 & H2).
  exists (R :: Rs). cbn [map concat]. rewrite map_app, rx_app, H1. cbn [fst snd]. rewrite IH. split; [reflexivity|constructor; assumption].
Qed.

Lemma frames_of_map w : frames_of (map (fun f => IFrame (norm f)) w) = map norm w.
Proof. induction w as [|x w IH]; [reflexivity|]. cbn [map frames_of flat_map app] in *. f_equal. exact IH. Qed.

Lemma CWF_nil : CWF [].
Proof. intros k g H. discriminate H. Qed.

(* message framing (one frame per message).  ANY history of send_frame / send_priority_frame calls and sender steps in
   which no priority frame is queued on stream k and after which what was queued for k has been written; ANY fragment
   size >= 64 or none: the complete frames the receiver hands to dispatch on k are the frames queued on k, one for one,
   in order, each delivered intact. *)
Theorem rx_queued size lenreq ls k :
  size_ok size -> (forall f, In (QPrio f) ls -> fsid f <> k) ->
  let s := qrun size lenreq ls in
  pending (q s) k = [] ->
  Forall2 delivered_as (on k (enqueued ls)) (on k (snd (rx [] (map norm (wire s))))).
Proof.
  intros Hs Hn s Hdrained.
  destruct (rx_stream k (map norm (wire s)) [] [] CWF_nil CWF_nil eq_refl) as [E _]. rewrite E, on_map_norm.
  pose proof (per_stream_off size lenreq Hs ls k Hn) as P. cbv zeta in P. fold s in P. rewrite Hdrained, app_nil_r in P. rewrite P.
  destruct (rx_frames size lenreq Hs (on k (enqueued ls))) as (Rs & HR & HF). rewrite HR. exact HF.
Qed.

Lemma receive_valid bk w chunks : Forall (fun f => wf f = true /\ lenN (encode f) < 2 ^ 24) w ->
  concat chunks = wire_bytes w -> receive bk chunks = snd (rx [] (map norm w)).
Proof.
  intros Hwf Hbytes. unfold receive. rewrite (feed_all_spec (decode bk) chunks), Hbytes. unfold wire_bytes.
  rewrite (valid_frames bk w Hwf). cbn [fst]. rewrite frames_of_map. reflexivity.
Qed.

(* byte-stream framing: the same for ANY chunking of the bytes written *)
Theorem receive_queued bk size lenreq ls chunks k :
  size_ok size -> (forall f, In (QPrio f) ls -> fsid f <> k) ->
  let s := qrun size lenreq ls in
  pending (q s) k = [] ->
  Forall (fun f => wf f = true /\ lenN (encode f) < 2 ^ 24) (wire s) ->
  concat chunks = wire_bytes (wire s) ->
  Forall2 delivered_as (on k (enqueued ls)) (on k (receive bk chunks)).
Proof.
  intros Hs Hn s Hdrained Hwf Hbytes. rewrite (receive_valid bk (wire s) chunks Hwf Hbytes). apply rx_queued; assumption.
Qed.

Theorem end_to_end bk size lenreq ls chunks k :
  size_ok size -> no_prio ls ->
  let s := qrun size lenreq ls in
  (forall j, pending (q s) j = []) ->
  Forall (fun f => wf f = true /\ lenN (encode f) < 2 ^ 24) (wire s) ->
  concat chunks = wire_bytes (wire s) ->
  Forall2 delivered_as (on k (enqueued ls)) (on k (receive bk chunks)).
Proof. intros Hs Hn s Hd. apply receive_queued; [exact Hs|exact (no_prio_In k ls Hn)|apply Hd]. Qed.

Lemma Forall2_len {A B} (P : A -> B -> Prop) l1 l2 : Forall2 P l1 l2 -> length l1 = length l2.
Proof. induction 1; cbn [length]; congruence. Qed.

Corollary nothing_from_other_streams bk size lenreq ls chunks k :
  size_ok size -> no_prio ls ->
  let s := qrun size lenreq ls in
  (forall j, pending (q s) j = []) ->
  Forall (fun f => wf f = true /\ lenN (encode f) < 2 ^ 24) (wire s) ->
  concat chunks = wire_bytes (wire s) ->
  length (on k (receive bk chunks)) = length (on k (enqueued ls)).
Proof.
  intros Hs Hn s Hd Hw Hb. symmetry. eapply Forall2_len. apply (end_to_end bk size lenreq ls chunks k); assumption.
Qed.

(* non-vacuity: two streams, a 150-byte payload fragmented at 64 interleaved with a request on another stream, read
   in three odd chunks *)
Definition ex_ls : list qlabel :=
  [QEnq (FPayload 1 false false true true [] (pat 1 0 150)); QEnq (FRequestResponse 3 false false [x01] [x02]);
   QSend; QSend; QSend; QSend; QSend].
Example end_to_end_example :
  let s := qrun (Some 64) true ex_ls in
  (forall j, pending (q s) j = []) /\ length (wire s) = 4%nat /\
  map (fun f => (ftype f, lenN (fdata f))) (on 1 (receive Cbit [takeN (wire_bytes (wire s)) 5; takeN (dropN (wire_bytes (wire s)) 5) 100;
                                     dropN (wire_bytes (wire s)) 105])) = [(FT_PAYLOAD, 150)].
Proof. split; [intro j; vm_compute; reflexivity|]. vm_compute. split; reflexivity. Qed.
