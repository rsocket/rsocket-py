(* C07: how often and in which order the endpoint signals the application: the request-response awaitable (potential
   [pend]) and the subscribers the library drives (potential [opn]). *)
From Coq Require Import Arith NArith List Bool Lia Init.Byte.
From RSV Require Import model.Frame model.StreamIds model.Endpoint proofs.EndpointObjects proofs.EndpointProofs.
Import ListNotations.
Open Scope N_scope.

Fixpoint futs (oid : nat) (effs : list effect) : nat :=
  match effs with
  | [] => 0
  | XFut j _ _ _ :: r => (if Nat.eqb j oid then 1 else 0) + futs oid r
  | _ :: r => futs oid r
  end%nat.

Lemma futs_app oid a b : futs oid (a ++ b) = (futs oid a + futs oid b)%nat.
Proof. induction a as [|x a IH]; [reflexivity|]. destruct x; cbn [app futs]; rewrite IH; lia. Qed.

(* 1 also while the object does not exist yet, so that its creation does not raise the potential *)
Definition pend (e : ep) (oid : nat) : nat :=
  match nth_error (objs e) oid with
  | Some o => match o_fut o with FPending => 1 | _ => 0 end
  | None => 1
  end%nat.

Lemma pend_le1 e oid : (pend e oid <= 1)%nat.
Proof. unfold pend. destruct (nth_error (objs e) oid) as [o|]; [destruct (o_fut o)|]; lia. Qed.

Lemma futs_skip oid x r : eff_oid x <> Some oid -> futs oid (x :: r) = futs oid r.
Proof. intro H. destruct x as [|j ? ? ?| | | | |]; try reflexivity. cbn [futs]. destruct (Nat.eqb_spec j oid) as [->|_]; [destruct H|]; reflexivity. Qed.

Definition obj_pend (o : hobj) : nat := match o_fut o with FPending => 1 | _ => 0 end.

Lemma obj_step_futs oid o i : (futs oid (c_effs (obj_step oid o i)) + obj_pend (c_obj (obj_step oid o i)) <= obj_pend o)%nat.
Proof. obj_cases o i; unfold obj_pend; cbn; use_eqs; rewrite ?Nat.eqb_refl; first [apply Nat.le_refl|lia]. Qed.

Lemma elem_futs oid sid e x e' : elem sid e x e' -> (futs oid x + pend e' oid <= pend e oid)%nat.
Proof.
  intro H. unfold pend. destruct (elem_at_object oid _ _ _ _ H) as [o i Ho _ _ _ -> -> Ho'|k hp Hn -> _|Hsame Hx].
  - rewrite Ho', Ho. apply obj_step_futs.
  - rewrite Hn. apply pend_le1.
  - rewrite Hsame, (unaddressed (futs oid) oid (futs_skip oid) x Hx). apply Nat.le_refl.
Qed.

Lemma trans_futs oid (S : N -> Prop) e x e' : Inv e -> trans S e x e' -> (futs oid x + pend e' oid <= pend e oid)%nat.
Proof. apply (potential (futs oid) (fun e => pend e oid) (futs_app oid)). intros sid e0 x0 e0' _. apply elem_futs. Qed.

Theorem step_futs u e l oid : Inv e ->
  (futs oid (snd (ep_step u e l)) + pend (fst (ep_step u e l)) oid <= pend e oid)%nat.
Proof. intro I. exact (trans_futs oid _ _ _ _ I (step_trans u e l I)). Qed.

Theorem run_futs : forall ls e oid, Inv e ->
  (futs oid (concat (snd (ep_run e ls))) + pend (fst (ep_run e ls)) oid <= pend e oid)%nat.
Proof. intros ls e oid I. exact (trans_futs oid _ _ _ _ I (run_trans ls e I)). Qed.

(* C07: the awaitable is never resolved after the caller has cancelled it or it has been resolved *)
Theorem no_resolution_unless_pending ls e oid o : Inv e -> nth_error (objs e) oid = Some o -> o_fut o <> FPending ->
  futs oid (concat (snd (ep_run e ls))) = 0%nat.
Proof.
  intros I Ho Hf. pose proof (run_futs ls e oid I) as H.
  assert (pend e oid = 0)%nat as Hp by (unfold pend; rewrite Ho; destruct (o_fut o); congruence). lia.
Qed.

Lemma open_responder_length e f o : (length (objs e) <= length (objs (fst (open_responder e f o))))%nat.
Proof.
  rewrite open_responder_obj. destruct (responder_for f o) as [[ob hs]|]; [|apply Nat.le_refl].
  unfold perform. cbn [fst]. rewrite commit_objs, oset_length. cbn [register_obj objs]. rewrite app_length. lia.
Qed.

Definition is_term (s : signal) : bool :=
  match s with SComplete | SError => true | SNext _ _ c => c | SSubscribe => false end.

(* the signals to the subscriber of oid, on_subscribe left out ([sigs] of EndpointSubscribe.v keeps it) *)
Fixpoint dsigs (oid : nat) (effs : list effect) : list signal :=
  match effs with
  | [] => []
  | XCb j s :: r => (if Nat.eqb j oid then match s with SSubscribe => [] | _ => [s] end else []) ++ dsigs oid r
  | _ :: r => dsigs oid r
  end.

Lemma dsigs_app oid a b : dsigs oid (a ++ b) = dsigs oid a ++ dsigs oid b.
Proof. induction a as [|x a IH]; [reflexivity|]. destruct x; cbn [app dsigs]; rewrite ?IH, ?app_assoc; reflexivity. Qed.

Definition reachb (e : ep) (oid : nat) : bool := existsb (fun p => Nat.eqb (snd p) oid) (table e).

(* nothing more can be signalled to the subscriber of oid: no table entry leads to the object any more (frames reach it
   through the table only), or it is a channel whose receive direction is marked complete *)
Definition closedb (e : ep) (oid : nat) : bool :=
  match nth_error (objs e) oid with
  | Some o => negb (reachb e oid) || (is_chan (o_kind o) && o_recv o)
  | None => false
  end.
(* as [pend]: 1 also while the object does not exist yet *)
Definition opn (e : ep) (oid : nat) : nat := if closedb e oid then 0%nat else 1%nat.

Definition tcount (oid : nat) (effs : list effect) : nat := length (filter is_term (dsigs oid effs)).

Lemma tcount_app oid a b : tcount oid (a ++ b) = (tcount oid a + tcount oid b)%nat.
Proof. unfold tcount. rewrite dsigs_app, filter_app, app_length. reflexivity. Qed.

Lemma tcount_le oid effs : (tcount oid effs <= length (dsigs oid effs))%nat.
Proof. unfold tcount. induction (dsigs oid effs) as [|x l IH]; cbn [filter length]; [lia|]. destruct (is_term x); cbn [length]; lia. Qed.

Definition is_payload (f : frame) : bool := match f with FPayload _ _ _ _ _ _ _ => true | _ => false end.

Lemma dsigs_skip oid x r : eff_oid x <> Some oid -> dsigs oid (x :: r) = dsigs oid r.
Proof. intro H. destruct x as [| |j ?| | | |]; try reflexivity. cbn [dsigs]. destruct (Nat.eqb_spec j oid) as [->|_]; [destruct H|]; reflexivity. Qed.

Lemma dsigs_plain oid sid xs : Forall (plain sid) xs -> dsigs oid xs = [].
Proof.
  intro H. apply (unaddressed (dsigs oid) oid (dsigs_skip oid)). eapply Forall_impl; [|exact H]. intros x [Hx _]. congruence.
Qed.

Definition obj_opn (o : hobj) : nat := if is_chan (o_kind o) && o_recv o then 0%nat else 1%nat.

Lemma obj_step_sigs oid o i : admits o i -> let c := obj_step oid o i in
  (obj_opn (c_obj c) <= obj_opn o)%nat /\
  match i with
  | OnLocal _ | OnDispose => dsigs oid (c_effs c) = []
  | _ => (length (dsigs oid (c_effs c)) <= obj_opn o)%nat /\
         (tcount oid (c_effs c) = 0%nat \/ c_fin c = true \/ obj_opn (c_obj c) = 0%nat)
  end.
Proof.
  (* a channel whose receive side is marked drops payloads; a branch that emits a terminal signal finishes the stream or
     marks the receive side; calls and disposal emit at most on_subscribe.  Every case computes; for the first part a
     case may first have to be split on [o_recv], which its branch of obj_step did not read *)
  intro Ha. cbv zeta. obj_cases o i; unfold obj_opn, tcount; cbn; use_eqs; rewrite ?Nat.eqb_refl; cbn;
    (split; [try match goal with |- context [o_recv ?x] => destruct (o_recv x) end; repeat constructor|]);
    try reflexivity; split_bools;
    (split; [first [apply Nat.le_0_l|apply le_n]|first [left; reflexivity|right; left; reflexivity|right; right; reflexivity]]).
Qed.

Lemma opn_le1 e oid : (opn e oid <= 1)%nat.
Proof. unfold opn. destruct (closedb e oid); lia. Qed.

Lemma tget_reachb e sid oid : tget (table e) sid = Some oid -> reachb e oid = true.
Proof.
  unfold reachb. induction (table e) as [|[k v] t IH]; cbn [tget existsb snd]; [discriminate|].
  destruct (k =? sid); [intros [= ->]; rewrite Nat.eqb_refl; reflexivity|]. intro H. rewrite (IH H). apply orb_true_r.
Qed.

Lemma opn_reach e oid o : nth_error (objs e) oid = Some o -> reachb e oid = true -> opn e oid = obj_opn o.
Proof. intros Ho Hr. unfold opn, closedb. rewrite Ho, Hr. reflexivity. Qed.

Lemma opn_finish_own e oid o : Inv e -> nth_error (objs e) oid = Some o -> opn (finish e (o_sid o)) oid = 0%nat.
Proof.
  intros I Ho. unfold opn, closedb. cbn [finish objs]. rewrite Ho.
  destruct (reachb (finish e (o_sid o)) oid) eqn:E; [exfalso|reflexivity].
  unfold reachb in E. cbn [finish table] in E. apply existsb_exists in E. destruct E as ([s i] & Hin & Hx).
  cbn [snd] in Hx. apply Nat.eqb_eq in Hx. subst i. apply tremove_In in Hin. destruct Hin as [Hin Hne].
  destruct (inv_objs e I s oid Hin) as (o' & Ho' & Hs). congruence.
Qed.

Lemma opn_commit_own e oid o o' f : Inv e -> nth_error (objs e) oid = Some o -> o_sid o' = o_sid o -> reachb e oid = true ->
  opn (commit e oid o' f) oid = if f then 0%nat else obj_opn o'.
Proof.
  intros I Ho Hs Hr. assert (nth_error (objs (set_obj e oid o')) oid = Some o') as Hn
    by exact (nth_oset_same _ _ _ _ Ho).
  unfold commit. destruct f; [|exact (opn_reach _ _ _ Hn Hr)].
  apply opn_finish_own; [exact (inv_commit e oid o o' false I Ho Hs)|exact Hn].
Qed.

Lemma elem_reachb oid sid e x e' : elem sid e x e' -> reachb e' oid = true ->
  reachb e oid = true \/ nth_error (objs e) oid = None.
Proof.
  assert (forall t k, existsb (fun p => Nat.eqb (snd p) oid) (tremove t k) = true ->
                      existsb (fun p => Nat.eqb (snd p) oid) t = true) as R.
  { intros t k. unfold tremove. rewrite !existsb_exists. intros (y & Hin & Hy). apply filter_In in Hin. exists y. tauto. }
  unfold reachb. intros H E. destruct H as [e j o i _ _ _ _|e k hp|e|e|e c _ _|e|e x _];
    try (left; first [exact E|exact (R _ _ E)]).
  - left. unfold commit in E. destruct (c_fin _); [exact (R _ _ E)|exact E].
  - cbn [register_obj table tset existsb snd] in E. destruct (Nat.eqb_spec (length (objs e)) oid) as [<-|_];
      [right; apply nth_error_None, le_n|left; exact (R _ _ E)].
  - left. unfold alloc in E. destruct (allocate (sc e)). exact E.
Qed.

Lemma opn_le e e' oid o o' : nth_error (objs e) oid = Some o -> nth_error (objs e') oid = Some o' ->
  (obj_opn o' <= obj_opn o)%nat -> (reachb e' oid = true -> reachb e oid = true) -> (opn e' oid <= opn e oid)%nat.
Proof.
  intros Ho Ho' Hr Hb. unfold opn, closedb. rewrite Ho, Ho'. destruct (reachb e' oid); [|cbn; lia].
  rewrite (Hb eq_refl). exact Hr.
Qed.

Lemma elem_opn_le oid sid e x e' : elem sid e x e' -> (opn e' oid <= opn e oid)%nat.
Proof.
  intro H. destruct (nth_error (objs e) oid) as [o|] eqn:Ho; [|unfold opn at 2, closedb; rewrite Ho; apply opn_le1].
  assert (reachb e' oid = true -> reachb e oid = true) as Hb
    by (intro E; destruct (elem_reachb oid _ _ _ _ H E); congruence).
  destruct (elem_at_object oid _ _ _ _ H) as [o0 i Ho0 _ _ Ha _ _ Ho'|k hp Hn _ _|Hsame _]; [|congruence|].
  - replace o0 with o in * by congruence. exact (opn_le e e' oid o _ Ho Ho' (proj1 (obj_step_sigs oid o i Ha)) Hb).
  - rewrite Ho in Hsame. exact (opn_le e e' oid o o Ho Hsame (le_n _) Hb).
Qed.

Lemma elem_sigs oid sid e x e' : Inv e -> elem sid e x e' ->
  (length (dsigs oid x) <= opn e oid)%nat /\ (tcount oid x + opn e' oid <= opn e oid)%nat.
Proof.
  intros I H. pose proof (elem_opn_le oid _ _ _ _ H) as Hle. pose proof (tcount_le oid x) as Hc.
  assert (dsigs oid x = [] -> (length (dsigs oid x) <= opn e oid)%nat /\ (tcount oid x + opn e' oid <= opn e oid)%nat) as Q
    by (unfold tcount; intros ->; cbn; lia).
  destruct (elem_at_object oid _ _ _ _ H) as [o i Ho Hs Hr Ha -> -> _|k hp _ -> _|_ Hx];
    [|apply Q; reflexivity|exact (Q (unaddressed (dsigs oid) oid (dsigs_skip oid) x Hx))].
  destruct (obj_step_sigs oid o i Ha) as [_ S].
  (* a frame or the set-up reaches the object through the table *)
  destruct i; try exact (Q S); cbn [routed] in Hr; pose proof (tget_reachb e _ _ Hr) as Hb;
    rewrite (opn_commit_own e oid o _ _ I Ho (proj2 (obj_step_same _ _ _)) Hb), (opn_reach e oid o Ho Hb) in *;
    destruct S as [A B]; destruct (c_fin _); lia.
Qed.

Lemma single_sigs oid sid e x e' : single sid e x e' -> Inv e -> (length (dsigs oid x) <= opn e oid)%nat.
Proof.
  induction 1 as [e e1 x e2 He _ IH|e x e1 xs He Hxs|e xs Hxs]; intro I.
  - pose proof (elem_opn_le oid _ _ _ _ He). specialize (IH (elem_inv _ _ _ _ I He)). lia.
  - rewrite dsigs_app, (dsigs_plain oid sid xs Hxs), app_nil_r. apply (elem_sigs oid _ _ _ _ I He).
  - rewrite (dsigs_plain oid sid xs Hxs). cbn. lia.
Qed.

Lemma trans_tcount oid (S : N -> Prop) e x e' : Inv e -> trans S e x e' -> (tcount oid x + opn e' oid <= opn e oid)%nat.
Proof. apply (potential (tcount oid) (fun e => opn e oid) (tcount_app oid)). intros sid e0 x0 e0' I H. apply (elem_sigs oid _ _ _ _ I H). Qed.

Lemma sweep_terminal oid : forall entries e,
  length (dsigs oid (snd (close_all e entries))) = tcount oid (snd (close_all e entries)).
Proof.
  apply (sweep_effects (fun x => length (dsigs oid x) = tcount oid x)); [reflexivity| | |].
  - intros a b Ha Hb. rewrite tcount_app, dsigs_app, app_length, Ha, Hb. reflexivity.
  - intros j o sid. cbn [obj_step]. unfold obj_frame, sweep_frame, f_error, tcount. destruct (o_kind o); split_ifs; cbn; try reflexivity;
      destruct (Nat.eqb j oid); reflexivity.
  - intros j o. cbn [obj_step stay c_effs]. unfold dispose. destruct (o_kind o); split_ifs; reflexivity.
Qed.

Theorem step_sigs u e l oid : Inv e ->
  (length (dsigs oid (snd (ep_step u e l))) <= opn e oid)%nat /\
  (tcount oid (snd (ep_step u e l)) + opn (fst (ep_step u e l)) oid <= opn e oid)%nat.
Proof.
  intro I. pose proof (trans_tcount oid _ _ _ _ I (step_trans u e l I)) as H. split; [|exact H].
  destruct (close_or_not l) as [->|Hc].
  - cbn [ep_step] in *. rewrite sweep_terminal. lia.
  - destruct (step_single u e l I Hc) as [sid Hs]. exact (single_sigs oid _ _ _ _ Hs I).
Qed.

Definition ok_sigs (l : list signal) : Prop :=
  forall pre s post, l = pre ++ s :: post -> is_term s = true -> post = [].

Lemma trans_closed_silent oid (S : N -> Prop) e x e' : trans S e x e' -> Inv e -> opn e oid = 0%nat -> dsigs oid x = [].
Proof.
  induction 1 as [|sid e x e1 y e2 _ He _ IH]; intros I Hz; [reflexivity|].
  destruct (elem_sigs oid _ _ _ _ I He) as [A B]. rewrite dsigs_app, IH by (try lia; exact (elem_inv _ _ _ _ I He)).
  destruct (dsigs oid x); [reflexivity|cbn in A; lia].
Qed.

Lemma trans_sigs_ok oid (S : N -> Prop) e x e' : trans S e x e' -> Inv e -> ok_sigs (dsigs oid x).
Proof.
  induction 1 as [e|sid e x e1 y e2 _ He Ht IH]; intro I; [intros [|? ?] ? ? [=]|].
  destruct (elem_sigs oid _ _ _ _ I He) as [A B]. pose proof (opn_le1 e oid) as Hle. unfold tcount in B.
  pose proof (elem_inv _ _ _ _ I He) as I1. specialize (IH I1).
  rewrite dsigs_app. destruct (dsigs oid x) as [|s [|s' t]]; cbn [length] in A; [exact IH| |lia].
  intros [|p pre] s0 post Heq Hterm; cbn [app] in Heq; injection Heq as <- Heq.
  - subst post. cbn [filter] in B. rewrite Hterm in B. cbn [length] in B. apply (trans_closed_silent oid _ _ _ _ Ht I1). lia.
  - exact (IH pre s0 post Heq Hterm).
Qed.

Lemma run_closed_silent ls e oid : Inv e -> opn e oid = 0%nat -> dsigs oid (concat (snd (ep_run e ls))) = [].
Proof. intro I. exact (trans_closed_silent oid _ _ _ _ (run_trans ls e I) I). Qed.

Theorem run_sigs_ok ls e oid : Inv e -> ok_sigs (dsigs oid (concat (snd (ep_run e ls)))).
Proof. intro I. exact (trans_sigs_ok oid _ _ _ _ (run_trans ls e I) I). Qed.

(* a channel requester receiving an element, a completion and then the close sweep: the sweep adds nothing after the
   completion *)
Example sigs_example :
  let ls := [(LReqChannel [] [x01] true, true); (LSubscribe 0 true [] [x01], true);
             (LRecv (FPayload 1 false false false true [] [x02]) ONone, true);
             (LRecv (FPayload 1 false false true false [] []) ONone, true); (LClose, true)] in
  dsigs 0 (concat (snd (ep_run (ep_init 1) ls))) = [SNext [] [x02] false; SComplete].
Proof. vm_compute. reflexivity. Qed.

Example sigs_example2 :
  let ls := [(LReqChannel [] [x01] true, true); (LSubscribe 0 true [] [x01], true);
             (LRecv (FPayload 1 false false false true [] [x02]) ONone, true);
             (LRecv (FPayload 1 false false true false [] []) ONone, true); (LClose, true)] in
  dsigs 0 (concat (snd (ep_run (ep_init 1) ls))) = [SNext [] [x02] false; SComplete].
Proof. exact sigs_example. Qed.
