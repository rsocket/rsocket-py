(* Lemmas and proofs for C19 (model/Routing.v).  Everything about [dispatch] goes through three statements:
   dispatch_items (its normal form in the specification's vocabulary), dispatch_ran (when a handler runs, as an
   equivalence) and not_ran_error (otherwise the outcome is the method's own error).  "No handler runs when ..."
   results are contrapositives of "a handler that ran ..." results. *)
From Coq Require Import NArith List Bool Init.Byte.
From RSV Require Import lib.Bytes model.Routing.
Import ListNotations.
Open Scope N_scope.

Lemma deco_eqb_spec a b : reflect (a = b) (deco_eqb a b).
Proof. destruct a, b; constructor; congruence. Qed.

Lemma deco_eqb_neq : forall a b, a <> b -> deco_eqb a b = false.
Proof. intros a b H. destruct (deco_eqb_spec a b); [contradiction|reflexivity]. Qed.

Lemma bytes_eqb_refl : forall a, bytes_eqb a a = true.
Proof. intro a. apply bytes_eqb_eq. reflexivity. Qed.

Lemma tables_aligned : forall m,
  assocN (meth_frame_type m) route_map_by_frame_type = Some (deco_slot (deco_of_meth m)) /\
  assocN (meth_frame_type m) unknown_route_chain = Some (deco_unknown (deco_of_meth m)).
Proof. destruct m; split; reflexivity. Qed.

Lemma get_set_slot d d' r tb :
  get_slot (deco_slot d) (set_slot (deco_slot d') r tb) = if deco_eqb d d' then r else get_slot (deco_slot d) tb.
Proof. destruct d, d'; reflexivity. Qed.

Lemma get_set_unknown d d' h tb :
  get_unknown (deco_unknown d) (set_unknown (deco_unknown d') h tb) =
  if deco_eqb d d' then h else get_unknown (deco_unknown d) tb.
Proof. destruct d, d'; reflexivity. Qed.

Lemma get_unknown_set_slot : forall u s r tb, get_unknown u (set_slot s r tb) = get_unknown u tb.
Proof. destruct u, s; reflexivity. Qed.

Lemma get_slot_set_unknown : forall s u h tb, get_slot s (set_unknown u h tb) = get_slot s tb.
Proof. destruct s, u; reflexivity. Qed.

Lemma lookup_route_app : forall n a b,
  lookup_route n (a ++ b) = match lookup_route n a with Some h => Some h | None => lookup_route n b end.
Proof.
  induction a as [|[k h] a IH]; intro b; cbn [lookup_route app]; [reflexivity|].
  destruct (bytes_eqb n k); [reflexivity|apply IH].
Qed.

Definition or_else {A} (a b : option A) : option A := match a with Some x => Some x | None => b end.

Lemma build_from_lookup : forall rs tb d n,
  lookup_route n (get_slot (deco_slot d) (build_from tb rs)) =
  or_else (lookup_route n (get_slot (deco_slot d) tb)) (first_registered rs d n).
Proof.
  induction rs as [|r rest IH]; intros tb d n; cbn [build_from first_registered].
  - destruct (lookup_route _ _); reflexivity.
  - rewrite IH. destruct r as [d' [n'|] h | d' h]; cbn [register]; rewrite ?get_slot_set_unknown; try reflexivity.
    destruct (lenN n' =? 0); cbn [negb]; rewrite ?andb_false_r, ?andb_true_r; [reflexivity|].
    destruct (lookup_route n' (get_slot (deco_slot d') tb)) as [h0|] eqn:Elk.
    + (* a duplicate raises: the route found first is already in the table *)
      destruct (deco_eqb_spec d d') as [<-|]; [|reflexivity].
      destruct (bytes_eqb_spec n n') as [<-|]; [rewrite Elk|]; reflexivity.
    + rewrite get_set_slot. destruct (deco_eqb_spec d d') as [<-|]; [|reflexivity]. rewrite lookup_route_app.
      cbn [lookup_route andb]. destruct (lookup_route n _), (bytes_eqb n n'); reflexivity.
Qed.

Lemma build_from_unknown : forall rs tb d,
  get_unknown (deco_unknown d) (build_from tb rs) = or_else (last_unknown rs d) (get_unknown (deco_unknown d) tb).
Proof.
  induction rs as [|r rest IH]; intros tb d; cbn [build_from last_unknown]; [reflexivity|].
  rewrite IH. destruct r as [d' [n'|] h | d' h]; cbn [register]; try reflexivity.
  - destruct (lenN n' =? 0), (lookup_route n' (get_slot (deco_slot d') tb)); rewrite ?get_unknown_set_slot; reflexivity.
  - rewrite get_set_unknown. destruct (last_unknown rest d), (deco_eqb d d'); reflexivity.
Qed.

Lemma registration : forall rs d n,
  lookup_route n (get_slot (deco_slot d) (build rs)) = first_registered rs d n /\
  get_unknown (deco_unknown d) (build rs) = last_unknown rs d.
Proof.
  intros. unfold build. rewrite build_from_lookup, build_from_unknown.
  split; [|destruct (last_unknown rs d)]; destruct d; reflexivity.
Qed.

Lemma first_registered_In : forall rs d n h,
  first_registered rs d n = Some h -> In (Reg d (Some n) h) rs /\ n <> [].
Proof.
  induction rs as [|r rest IH]; intros d n h Hf; cbn [first_registered] in Hf; [discriminate Hf|].
  assert (first_registered rest d n = Some h -> In (Reg d (Some n) h) (r :: rest) /\ n <> []) as Hrest
    by (intro H; apply IH in H; cbn [In]; tauto).
  destruct r as [d' [n'|] h' | d' h']; auto.
  destruct (deco_eqb_spec d d') as [<-|]; [|auto]. destruct (bytes_eqb_spec n n') as [<-|]; [|auto].
  destruct n; [auto|]. injection Hf as <-. split; [left; reflexivity|discriminate].
Qed.

Lemma last_unknown_In : forall rs d h, last_unknown rs d = Some h -> In (RegUnknown d h) rs.
Proof.
  induction rs as [|r rest IH]; intros d h Hl; cbn [last_unknown] in Hl; [discriminate Hl|].
  destruct r as [d' n' h' | d' h']; [right; auto|].
  destruct (last_unknown rest d) as [h0|] eqn:E; [injection Hl as <-; right; auto|].
  destruct (deco_eqb_spec d d') as [<-|]; [|discriminate Hl]. injection Hl as <-. left. reflexivity.
Qed.

Definition des_fine (des_ok : N -> bool) (p : param) : bool :=
  match needs_deserializer p with Some c => des_ok c | None => true end.

Lemma collect_spec : forall des_ok ps,
  collect_route_arguments des_ok ps =
  if forallb (des_fine des_ok) ps then Some (map arg_of ps) else None.
Proof.
  induction ps as [|[nm an] r IH]; cbn [collect_route_arguments forallb map]; [reflexivity|].
  unfold des_fine at 1, needs_deserializer, arg_of. rewrite IH. cbn [p_named_cm p_annot].
  destruct nm, an as [| | |c]; cbn [orb annot_is_composite]; try destruct (des_ok c); cbn [andb];
    try reflexivity; destruct (forallb _ r); reflexivity.
Qed.

Lemma des_fine_forall : forall des_ok ps,
  forallb (des_fine des_ok) ps = true <->
  (forall c, In (Some c) (map needs_deserializer ps) -> des_ok c = true).
Proof.
  intros des_ok ps. rewrite forallb_forall. split.
  - intros Hf c Hin. apply in_map_iff in Hin. destruct Hin as [p [Hp Hin]].
    specialize (Hf p Hin). unfold des_fine in Hf. rewrite Hp in Hf. exact Hf.
  - intros Hc p Hin. unfold des_fine. destruct (needs_deserializer p) as [c|] eqn:E; [|reflexivity].
    apply Hc. rewrite <- E. apply in_map. exact Hin.
Qed.

Definition table_selected (tb : tables) (m : meth) (n : name) : option handler :=
  or_else (lookup_route n (get_slot (deco_slot (deco_of_meth m)) tb))
          (get_unknown (deco_unknown (deco_of_meth m)) tb).

Lemma table_selected_build : forall rs m n, table_selected (build rs) m n = selected rs m n.
Proof.
  intros rs m n. unfold table_selected, selected.
  destruct (registration rs (deco_of_meth m) n) as [-> ->]. reflexivity.
Qed.

Lemma dispatch_items tb v des_ok ser_ok m l :
  dispatch tb v des_ok ser_ok m (MItems l) =
  match require_route l with
  | inl w => ErrorOn (meth_error m) w
  | inr n =>
      match verify_authentication v n l with
      | Some w => ErrorOn (meth_error m) w
      | None =>
          match table_selected tb m n with
          | None => ErrorOn (meth_error m) WUnknownRoute
          | Some H =>
              if forallb (des_fine des_ok) (hparams H)
              then Ran (hid H) (map arg_of (hparams H)) (expected_result m ser_ok (hdoes H))
              else ErrorOn (meth_error m) WDeserialize
          end
      end
  end.
Proof.
  unfold dispatch, parse_and_route, route, table_selected. destruct (tables_aligned m) as [-> ->].
  destruct (require_route l) as [w|n]; [reflexivity|]. destruct (verify_authentication v n l); [reflexivity|].
  destruct (lookup_route n _) as [H|]; cbn [or_else]; [|destruct (get_unknown _ tb) as [H|]; [|reflexivity]];
    rewrite collect_spec; (destruct (forallb _ _); [|reflexivity]); destruct (hdoes H), m, ser_ok; reflexivity.
Qed.

Lemma dispatch_ran : forall tb v des_ok ser_ok m md h args r,
  dispatch tb v des_ok ser_ok m md = Ran h args r <->
  exists l n H, md = MItems l /\ require_route l = inr n /\ verify_authentication v n l = None /\
    table_selected tb m n = Some H /\ forallb (des_fine des_ok) (hparams H) = true /\
    hid H = h /\ args = map arg_of (hparams H) /\ r = expected_result m ser_ok (hdoes H).
Proof.
  intros tb v des_ok ser_ok m md h args r. split.
  - destruct md as [|l]; [discriminate|]. rewrite dispatch_items.
    destruct (require_route l) as [w|n] eqn:Er; [discriminate|].
    destruct (verify_authentication v n l) as [w|] eqn:Ev; [discriminate|].
    destruct (table_selected tb m n) as [H|] eqn:Es; [|discriminate].
    destruct (forallb _ _) eqn:Ef; [|discriminate]. intros [= <- <- <-]. exists l, n, H. auto 10.
  - intros (l & n & H & -> & Hr & Hv & Hs & Hf & <- & -> & ->). rewrite dispatch_items, Hr, Hv, Hs, Hf. reflexivity.
Qed.

Lemma dispatch_error_kind tb v des_ok ser_ok m md k w :
  dispatch tb v des_ok ser_ok m md = ErrorOn k w -> k = meth_error m.
Proof.
  destruct md as [|l]; [intros [= <- _]; reflexivity|]. rewrite dispatch_items.
  destruct (require_route l) as [?|n]; [|destruct (verify_authentication v n l); [|destruct (table_selected tb m n);
    [destruct (forallb _ _)|]]]; congruence.
Qed.

Lemma not_ran_error tb v des_ok ser_ok m md :
  (forall h args r, dispatch tb v des_ok ser_ok m md <> Ran h args r) ->
  exists w, dispatch tb v des_ok ser_ok m md = ErrorOn (meth_error m) w.
Proof.
  intro Hn. destruct (dispatch tb v des_ok ser_ok m md) as [h args r|k w] eqn:E; [destruct (Hn h args r eq_refl)|].
  apply dispatch_error_kind in E as ->. exists w. reflexivity.
Qed.

Lemma arguments : forall rs v des_ok ser_ok m md h args r,
  dispatch (build rs) v des_ok ser_ok m md = Ran h args r ->
  exists l n H, md = MItems l /\ require_route l = inr n /\ selected rs m n = Some H /\ hid H = h /\
    args = map arg_of (hparams H) /\
    (forall c, In (Some c) (map needs_deserializer (hparams H)) -> des_ok c = true) /\
    r = expected_result m ser_ok (hdoes H).
Proof.
  intros rs v des_ok ser_ok m md h args r Hd.
  apply dispatch_ran in Hd. destruct Hd as (l & n & H & A & B & _ & D & G & R).
  rewrite table_selected_build in D. exists l, n, H. pose proof (proj1 (des_fine_forall _ _) G). tauto.
Qed.

Lemma exact : forall rs v des_ok ser_ok m md h args r,
  dispatch (build rs) v des_ok ser_ok m md = Ran h args r ->
  exists l n H, md = MItems l /\ require_route l = inr n /\ selected rs m n = Some H /\ hid H = h.
Proof.
  intros rs v des_ok ser_ok m md h args r Hd.
  destruct (arguments _ _ _ _ _ _ _ _ _ Hd) as (l & n & H & A & B & C & D & _). exists l, n, H. auto.
Qed.

Lemma selected_In : forall rs m n H, selected rs m n = Some H ->
  In (Reg (deco_of_meth m) (Some n) H) rs \/ In (RegUnknown (deco_of_meth m) H) rs.
Proof.
  intros rs m n H. unfold selected. destruct (first_registered rs (deco_of_meth m) n) as [h0|] eqn:E.
  - intros [= <-]. left. apply first_registered_In in E. tauto.
  - right. apply last_unknown_In. assumption.
Qed.

Lemma delivered : forall rs v des_ok ser_ok m l n H,
  require_route l = inr n -> verify_authentication v n l = None -> selected rs m n = Some H ->
  (forall c, In (Some c) (map needs_deserializer (hparams H)) -> des_ok c = true) ->
  dispatch (build rs) v des_ok ser_ok m (MItems l) =
  Ran (hid H) (map arg_of (hparams H)) (expected_result m ser_ok (hdoes H)).
Proof.
  intros rs v des_ok ser_ok m l n H Hr Hv Hs Hd. apply dispatch_ran. exists l, n, H.
  rewrite table_selected_build. apply des_fine_forall in Hd. auto 10.
Qed.

Lemma gate : forall tb f des_ok ser_ok m md h args r,
  dispatch tb (Some f) des_ok ser_ok m md = Ran h args r ->
  exists l n a, md = MItems l /\ require_route l = inr n /\ first_auth l = Some a /\ f n a = true.
Proof.
  intros tb f des_ok ser_ok m md h args r Hd.
  apply dispatch_ran in Hd. destruct Hd as (l & n & H & A & B & C & _). unfold verify_authentication in C.
  destruct (first_auth l) as [a|] eqn:Ea; [|discriminate C]. destruct (f n a) eqn:Ef; [|discriminate C].
  exists l, n, a. auto.
Qed.

Definition no_route (l : list entry) : Prop := forall ts, ~ In (ERoute ts) l.

Lemma require_route_app pre l : no_route pre -> require_route (pre ++ l) = require_route l.
Proof.
  induction pre as [|e pre IH]; intro Hn; [reflexivity|].
  assert (no_route pre) by (intros ts X; apply (Hn ts); right; exact X).
  destruct e; cbn [app require_route]; auto. destruct (Hn tags). left. reflexivity.
Qed.

Lemma require_route_none l : no_route l -> require_route l = inl WNoRoute.
Proof. intro Hn. rewrite <- (app_nil_r l). apply (require_route_app l [] Hn). Qed.

Lemma first_route_split l :
  no_route l \/ exists pre ts post, l = pre ++ ERoute ts :: post /\ no_route pre.
Proof.
  induction l as [|e r IH]; [left; intros ts []|].
  destruct e as [ts|a|].
  { right. exists [], ts, r. split; [reflexivity|intros ? []]. }
  all: destruct IH as [IH|(pre & ts & post & -> & IH)];
     [left|right; eexists (_ :: pre), ts, post; split; [reflexivity|]];
     (intros ts' [X|X]; [discriminate X|exact (IH ts' X)]).
Qed.

Lemma first_auth_In : forall l a, first_auth l = Some a -> In (EAuth a) l.
Proof.
  induction l as [|e r IH]; intros a Ha; cbn [first_auth] in Ha; [discriminate Ha|].
  destruct e as [tags|a'|]; [right; auto|injection Ha as ->; left; reflexivity|right; auto].
Qed.

(* for C19_gate_first_credentials_only: only the first authentication entry is looked at *)
Definition only_cred_1 : name -> N -> bool := fun _ a => a =? 1.
Definition one_route : list reg := [Reg DResponse (Some [x61]) {| hid := 7; hparams := []; hdoes := HRetPayload |}].

(* C19_delivered needs the deserializer hypothesis *)
Example delivered_needs_deserializer :
  dispatch (build [Reg DFnf (Some [x61]) {| hid := 1; hparams := [{| p_named_cm := false; p_annot := AnOther 5 |}];
                                            hdoes := HRetOther |}])
           None (fun _ => false) true MFnf (MItems [ERoute [Tag [x61]]]) = ErrorOn ESwallowed WDeserialize.
Proof. vm_compute. reflexivity. Qed.

(* an empty or None route cannot be registered: the request for '' falls to the unknown-route handler *)
Example empty_route_not_registered :
  build_raised empty_tables [Reg DResponse (Some []) {| hid := 1; hparams := []; hdoes := HRetPayload |};
                             Reg DResponse None {| hid := 2; hparams := []; hdoes := HRetPayload |}] = [true; true] /\
  dispatch (build [Reg DResponse (Some []) {| hid := 1; hparams := []; hdoes := HRetPayload |};
                   RegUnknown DResponse {| hid := 3; hparams := []; hdoes := HRetPayload |}])
           None (fun _ => true) true MResponse (MItems [ERoute [Tag []]]) = Ran 3 [] (Delivered DFuture).
Proof. split; vm_compute; reflexivity. Qed.
