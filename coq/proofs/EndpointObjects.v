(* The endpoint as a table of small automata.

   model/Endpoint.v threads the whole endpoint through every handler, but what a frame, an application call or the
   close sweep does to a registered interaction depends on the handler OBJECT alone: it yields a new object, says
   whether the stream is finished, and emits effects.  This file states that reading once — the pure functions
   obj_frame / obj_local / obj_setup / dispose, together [obj_step], whose result is a [change] that [perform] ([commit]
   for object and flag) writes into the endpoint — and proves that the model's handler_frame, ep_step (on object labels),
   open_responder and close_one are exactly that.  Everything about one atomic section is then a fact about a [change]
   plus a fact about [commit]. *)
From Coq Require Import Arith NArith List Bool Lia.
From RSV Require Import gen.GenConst model.Frame model.Fragmenter model.Endpoint.
Import ListNotations.
Open Scope N_scope.

Lemma tget_tremove t k k' : tget (tremove t k) k' = if k =? k' then None else tget t k'.
Proof.
  unfold tremove. induction t as [|[a v] r IH]; cbn [filter tget fst]; [destruct (k =? k'); reflexivity|].
  destruct (N.eqb_spec a k) as [->|Hak]; cbn [negb tget]; rewrite IH; [destruct (k =? k'); reflexivity|].
  destruct (N.eqb_spec a k') as [->|]; [|reflexivity]. destruct (N.eqb_spec k k'); [congruence|reflexivity].
Qed.

Lemma tget_tset t k v k' : tget (tset t k v) k' = if k =? k' then Some v else tget t k'.
Proof. unfold tset. cbn [tget]. rewrite tget_tremove. destruct (k =? k'); reflexivity. Qed.

Lemma tget_keys t k : In k (map fst t) \/ tget t k = None.
Proof.
  induction t as [|[a v] r IH]; cbn [tget map fst In]; [right; reflexivity|].
  destruct (N.eqb_spec a k); [left; left; assumption|destruct IH; [left; right; assumption|right; assumption]].
Qed.

Lemma nth_oset_same : forall l i o x, nth_error l i = Some x -> nth_error (oset l i o) i = Some o.
Proof. induction l as [|y r IH]; intros [|i] o x H; cbn in *; try discriminate; [reflexivity|exact (IH i o x H)]. Qed.

Lemma nth_oset_other : forall l i j o, i <> j -> nth_error (oset l i o) j = nth_error l j.
Proof. induction l as [|x r IH]; intros [|i] [|j] o H; cbn; try reflexivity; try congruence. apply IH. congruence. Qed.

Lemma oset_length : forall l i o, length (oset l i o) = length l.
Proof. induction l as [|x r IH]; intros [|i] o; cbn; auto. Qed.

Lemma oset_same : forall l i o, nth_error l i = Some o -> oset l i o = l.
Proof. induction l as [|x r IH]; intros [|i] o H; cbn in *; try congruence. f_equal. apply IH. exact H. Qed.

Lemma oset_oset : forall l i o o', oset (oset l i o) i o' = oset l i o'.
Proof. induction l as [|x r IH]; intros [|i] o o'; cbn; try reflexivity. f_equal. apply IH. Qed.

Lemma oset_last l (x o : hobj) : oset (l ++ [x]) (length l) o = l ++ [o].
Proof. induction l as [|y r IH]; cbn; [reflexivity|]. f_equal. exact IH. Qed.

Lemma filter_twice {A} (p : A -> bool) l : filter p (filter p l) = filter p l.
Proof. induction l as [|x l IH]; cbn; [reflexivity|]. destruct (p x) eqn:E; cbn; rewrite ?E, IH; reflexivity. Qed.

Record change := { c_obj : hobj; c_fin : bool; c_effs : list effect }.

Definition stay (o : hobj) (effs : list effect) : change := {| c_obj := o; c_fin := false; c_effs := effs |}.
Definition done (o : hobj) (effs : list effect) : change := {| c_obj := o; c_fin := true; c_effs := effs |}.
(* mark_completed_and_finish on top of a change *)
Definition mark (c : change) (s r : bool) : change :=
  let o := upd_marks (c_obj c) s r in
  {| c_obj := o; c_fin := c_fin c || (o_sent o && o_recv o); c_effs := c_effs c |}.

Definition commit (e : ep) (oid : nat) (o : hobj) (fin : bool) : ep :=
  let e' := set_obj e oid o in if fin then finish e' (o_sid o) else e'.

Definition perform (e : ep) (oid : nat) (c : change) : ep * list effect := (commit e oid (c_obj c) (c_fin c), c_effs c).

Lemma set_obj_same e oid o : nth_error (objs e) oid = Some o -> set_obj e oid o = e.
Proof. intro H. unfold set_obj. rewrite (oset_same _ _ _ H). destruct e; reflexivity. Qed.

Lemma finish_twice e s : finish (finish e s) s = finish e s.
Proof. unfold finish, StreamIds.finish, tremove, cache_remove. cbn. rewrite !filter_twice. reflexivity. Qed.

Lemma commit_commit e oid o f o' f' : o_sid o' = o_sid o ->
  commit (commit e oid o f) oid o' f' = commit e oid o' (f || f').
Proof.
  intro Hs. unfold commit. rewrite Hs.
  assert (forall x s, set_obj (finish x s) oid o' = finish (set_obj x oid o') s) as C by reflexivity.
  assert (set_obj (set_obj e oid o) oid o' = set_obj e oid o') as S by (unfold set_obj; cbn; rewrite oset_oset; reflexivity).
  destruct f, f'; cbn [orb]; rewrite ?C, ?S, ?finish_twice; reflexivity.
Qed.

Lemma commit_objs e oid o f : objs (commit e oid o f) = oset (objs e) oid o.
Proof. unfold commit. destruct f; reflexivity. Qed.

Lemma commit_nth e oid o f x : nth_error (objs e) oid = Some x -> nth_error (objs (commit e oid o f)) oid = Some o.
Proof. intro H. rewrite commit_objs. exact (nth_oset_same _ _ _ _ H). Qed.

Lemma chan_mark_commit e oid o f s r :
  chan_mark (commit e oid o f) oid o s r =
  commit e oid (upd_marks o s r) (f || (o_sent (upd_marks o s r) && o_recv (upd_marks o s r))).
Proof. apply (commit_commit e oid o f (upd_marks o s r)). reflexivity. Qed.

(* The boolean says that handling the frame raised.  Read by the input first and the kind of the object second, like
   obj_local and obj_setup (handler_frame reads by kind, as the handler classes do): a case analysis then meets the
   nine frame types no handler looks at once, not once per kind. *)
Definition obj_frame (oid : nat) (o : hobj) (f : frame) (utf8 : bool) : change * bool :=
  match f with
  | FPayload _ _ _ co nx md d =>
      match o_kind o with
      | KRRReq =>
          match o_fut o with
          | FPending => (done (upd_fut (upd_responded o) FResolved) [XFut oid true md d], false)
          | _ => (done (upd_responded o) [], false)
          end
      | KRSReq =>
          if (nx || co) && negb (o_has_sub o) then (stay o [], true)
          else ({| c_obj := o; c_fin := co;
                   c_effs := if nx then [XCb oid (SNext md d co)] else if co then [XCb oid SComplete] else [] |}, false)
      | KChanReq | KChanResp =>
          if o_recv o then (stay o [], false)
          else if (nx || co) && negb (o_has_sub o) then (stay o [], true)
          else
            let c := stay o (if nx then [XCb oid (SNext md d co)] else if co then [XCb oid SComplete] else []) in
            ((if co then mark c false true else c), false)
      | _ => (stay o [], false)
      end
  | FError _ _ _ _ =>
      match o_kind o with
      | KRRReq =>
          match o_fut o with
          | FPending => if utf8 then (done (upd_fut (upd_responded o) FResolved) [XFut oid false [] []], false)
                        else (stay (upd_responded o) [], true)
          | _ => (done (upd_responded o) [], false)
          end
      | KRSReq => if negb (o_has_sub o) then (stay o [], true)
                  else if utf8 then (done o [XCb oid SError], false) else (stay o [], true)
      | KChanReq | KChanResp =>
          if o_recv o then (mark (stay o []) false true, false)
          else if negb utf8 then (stay o [], true)
          else if negb (o_has_sub o) then (stay o [], true)
          else (mark (stay o [XCb oid SError]) false true, false)
      | _ => (stay o [], false)
      end
  | FCancel _ _ =>
      match o_kind o with
      | KRRResp =>
          match o_fut o with
          | FPending => (done (upd_fut o FCancelled) [XAppFutCancel oid], false)
          | _ => (done o [], false)
          end
      | KRSResp => (done o [XPub oid PCancelOp], false)
      | KChanReq | KChanResp =>
          if o_has_pub o then (mark (stay o [XPub oid PCancelOp]) true false, false) else (stay o [], true)
      | _ => (stay o [], false)
      end
  | FRequestN _ _ n =>
      match o_kind o with
      | KRSResp => (stay o [XPub oid (PRequestN n)], false)
      | KChanReq | KChanResp => (stay o (if o_has_pub o then [XPub oid (PRequestN n)] else []), false)
      | _ => (stay o [], false)
      end
  | FRequestStream _ _ _ n _ _ =>
      match o_kind o with
      | KRSResp => (stay o [XPub oid PSubscribe; XPub oid (PRequestN n)], false)
      | _ => (stay o [], false)
      end
  | _ => (stay o [], false)
  end.

(* splits on the future state of an object variable and on the condition of every [if] of the goal *)
Ltac split_ifs :=
  repeat match goal with
         | |- context [match o_fut ?o with _ => _ end] => is_var o; destruct (o_fut o)
         | |- context [if ?b then _ else _] => destruct b
         end.

Lemma handler_frame_obj e oid o f u : nth_error (objs e) oid = Some o ->
  handler_frame e oid o f u = (perform e oid (fst (obj_frame oid o f u)), snd (obj_frame oid o f u)).
Proof.
  intro Ho. pose proof (set_obj_same e oid o Ho) as S. unfold handler_frame, obj_frame.
  destruct (o_kind o); destruct f; split_ifs; unfold perform, commit, chan_mark; cbn; rewrite ?S; reflexivity.
Qed.

Definition subject (l : label) : option nat :=
  match l with
  | LInitialN oid _ _ | LSubscribe oid _ _ _ | LRequestN oid _ | LCancel oid | LFutCancel oid | LAppResolve oid _
  | LPubNext oid _ _ _ | LPubComplete oid | LPubError oid | LFutCb oid _ => Some oid
  | _ => None
  end.

Definition obj_local (oid : nat) (o : hobj) (l : label) : change :=
  let sid := o_sid o in
  match l with
  | LInitialN _ n positive => if positive then stay (upd_n o n) [] else done o [XRaised]
  | LSubscribe _ hs md d =>
      match o_kind o with
      | KRSReq => stay (upd_sub o false true) [XEnq (FRequestStream sid false false (o_n o) md d); XCb oid SSubscribe]
      | KChanReq =>
          let hp := o_has_pub o in
          let c1 := stay (upd_sub o hp hs)
                         ((if hp then [XPub oid PSubscribe] else []) ++
                          [XEnq (FRequestChannel sid false false (negb hp) (o_n o) md d)] ++
                          (if hs then [XCb oid SSubscribe] else [])) in
          let c2 := if hs then c1 else mark c1 false true in
          if hp then c2 else mark c2 true false
      | _ => stay o []
      end
  | LRequestN _ n => stay o [XEnq (f_request_n sid n)]
  | LCancel _ =>
      match o_kind o with
      | KRSReq => done o [XEnq (f_cancel sid)]
      | KChanReq | KChanResp => mark (stay o [XEnq (f_cancel sid)]) false true
      | _ => stay o []
      end
  | LFutCancel _ => match o_fut o with FPending => stay (upd_fut o FCancelled) [] | _ => stay o [] end
  | LFutCb _ r =>
      match o_kind o with
      | KRRReq => match o_fut o with
                  | FCancelled => if o_responded o then stay o [] else done o [XEnq (f_cancel sid)]
                  | _ => stay o []
                  end
      | KRRResp =>
          match r with
          | ARResult md d => done o [XEnq (f_payload sid md d true true)]
          | ARError => done o [XEnq (f_error sid EC_APPLICATION_ERROR [])]
          | ARCancel => done o []
          end
      | _ => stay o []
      end
  | LAppResolve _ r =>
      match o_kind o, o_fut o with
      | KRRResp, FPending => stay (upd_fut o (match r with ARCancel => FCancelled | _ => FResolved end)) []
      | _, _ => stay o []
      end
  | LPubNext _ md d c =>
      match o_kind o with
      | KRSResp => {| c_obj := o; c_fin := c; c_effs := [XEnq (f_payload sid md d c true)] |}
      | KChanReq | KChanResp =>
          let c0 := stay o [XEnq (f_payload sid md d c true)] in if c then mark c0 true false else c0
      | _ => stay o []
      end
  | LPubComplete _ =>
      match o_kind o with
      | KRSResp => done o [XEnq (f_payload sid [] [] true false)]
      | KChanReq | KChanResp => mark (stay o [XEnq (f_payload sid [] [] true false)]) true false
      | _ => stay o []
      end
  | LPubError _ =>
      match o_kind o with
      | KRSResp => done o [XEnq (f_error sid EC_APPLICATION_ERROR [])]
      | KChanReq | KChanResp => mark (stay o [XEnq (f_error sid EC_APPLICATION_ERROR [])]) true false
      | _ => stay o []
      end
  | _ => stay o []
  end.

Lemma local_step_obj u e l oid o : subject l = Some oid -> nth_error (objs e) oid = Some o ->
  ep_step u e l = perform e oid (obj_local oid o l).
Proof.
  intros Hl Ho. pose proof (set_obj_same e oid o Ho) as S.
  destruct l; try discriminate Hl; injection Hl as ->; cbn [ep_step]; unfold with_obj, obj_local; rewrite Ho;
    try destruct (o_kind o); try destruct r (* the application's result in LFutCb / LAppResolve *).
  (* channel set-up: the marks come on top of the object just stored *)
  all: try match goal with
           | |- context [FRequestChannel] =>
               change (set_obj e oid ?x) with (commit e oid x false);
               destruct has_sub, (o_has_pub o); cbv beta iota zeta; rewrite ?chan_mark_commit; reflexivity
           end.
  all: split_ifs; unfold perform, commit, chan_mark; cbn; rewrite ?S; reflexivity.
Qed.

Lemma local_step_none u e l oid : subject l = Some oid -> nth_error (objs e) oid = None -> ep_step u e l = (e, []).
Proof.
  intros Hl Ho. destruct l; try discriminate Hl; injection Hl as ->; cbn [ep_step]; unfold with_obj; rewrite Ho; reflexivity.
Qed.

(* The boolean: whether the application's handler returned a subscriber.  Like the requesters created by the request_*
   calls the object starts without one: it is given by the set-up below. *)
Definition responder_for (f : frame) (oc : outcome) : option (hobj * bool) :=
  match f, oc with
  | FRequestResponse sid _ _ _ _, OFuture => Some (mk_obj KRRResp sid, false)
  | FRequestStream sid _ _ _ _ _, OPublisher => Some (upd_sub (mk_obj KRSResp sid) true false, false)
  | FRequestChannel sid _ _ _ _ _ _, OChannel hp hs => Some (upd_sub (mk_obj KChanResp sid) hp false, hs)
  | _, _ => None
  end.

Definition obj_setup (oid : nat) (o : hobj) (f : frame) (hs : bool) : change :=
  match f with
  | FRequestResponse _ _ _ md d => stay o [XHandler HResponse md d]
  | FRequestStream _ _ _ n md d => stay o [XHandler HStream md d; XPub oid PSubscribe; XPub oid (PRequestN n)]
  | FRequestChannel _ _ _ co n md d =>
      let hp := o_has_pub o in
      let c1 := stay (upd_sub o hp hs)
                     ([XHandler HChannel md d] ++ (if hs then [XCb oid SSubscribe] else []) ++
                      (if hp then [XPub oid PSubscribe; XPub oid (PRequestN n)]
                       else [XEnq (f_payload (o_sid o) [] [] true false)]) ++
                      (if co then if hs then [XCb oid SComplete] else [] else [])) in
      let c2 := if hs then c1 else mark c1 false true in
      let c3 := if hp then c2 else mark c2 true false in
      if co then mark c3 false true else c3
  | _ => stay o []
  end.

Lemma register_nth e sid o : nth_error (objs (register_obj e sid o)) (length (objs e)) = Some o.
Proof. cbn. rewrite nth_error_app2, Nat.sub_diag by lia. reflexivity. Qed.

Lemma register_commit e sid o o' : commit (register_obj e sid o) (length (objs e)) o' false = register_obj e sid o'.
Proof. unfold commit, set_obj, register_obj. cbn. rewrite oset_last. reflexivity. Qed.

Lemma open_responder_obj e f oc :
  open_responder e f oc =
  match responder_for f oc with
  | Some (ob, hs) => perform (register_obj e (fsid f) ob) (length (objs e)) (obj_setup (length (objs e)) ob f hs)
  | None => (e, [])
  end.
Proof.
  unfold open_responder, responder_for.
  destruct f; destruct oc; try reflexivity; cbn [fsid obj_setup]; unfold perform.
  1, 2: cbn [stay c_obj c_fin c_effs]; rewrite register_commit; reflexivity.
  rewrite <- (register_commit e sid (upd_sub (mk_obj KChanResp sid) has_pub false)
                              (upd_sub (mk_obj KChanResp sid) has_pub has_sub)).
  destruct has_sub, has_pub, complete; cbv beta iota zeta; rewrite ?chan_mark_commit; reflexivity.
Qed.

(* dispose(), as the close sweep calls it *)
Definition dispose (oid : nat) (o : hobj) : hobj * list effect :=
  match o_kind o with
  | KRRResp => match o_fut o with FPending => (upd_fut o FCancelled, [XAppFutCancel oid]) | _ => (o, []) end
  | KRSResp => (o, [XPub oid PCancelOp])
  | KChanReq | KChanResp => (o, if o_has_pub o then [XPub oid PCancelOp] else [])
  | _ => (o, [])
  end.

Inductive input := OnFrame (f : frame) (utf8 : bool) | OnLocal (l : label) | OnSetup (f : frame) (hs : bool) | OnDispose.

Definition obj_step (oid : nat) (o : hobj) (i : input) : change :=
  match i with
  | OnFrame f u => fst (obj_frame oid o f u)
  | OnLocal l => obj_local oid o l
  | OnSetup f hs => obj_setup oid o f hs
  | OnDispose => stay (fst (dispose oid o)) (snd (dispose oid o))   (* the sweep removes the table entry on its own: finish_table, not finish *)
  end.

Definition sweep_frame (sid : N) : frame := f_error sid EC_CONNECTION_ERROR [].

Lemma close_one_obj e sid oid o : nth_error (objs e) oid = Some o ->
  let c1 := if is_requester (o_kind o) then obj_step oid o (OnFrame (sweep_frame sid) true) else stay o [] in
  let c2 := obj_step oid (c_obj c1) OnDispose in
  close_one e sid oid =
  (finish_table (commit (commit e oid (c_obj c1) (c_fin c1)) oid (c_obj c2) false) sid, c_effs c1 ++ c_effs c2).
Proof.
  intros Ho c1 c2. set (e1 := commit e oid (c_obj c1) (c_fin c1)). unfold close_one. rewrite Ho.
  assert ((if is_requester (o_kind o)
           then let '(e', effs, _) := handler_frame e oid o (f_error sid EC_CONNECTION_ERROR []) true in (e', effs)
           else (e, [])) = (e1, c_effs c1)) as ->.
  { unfold e1, c1. destruct (is_requester (o_kind o)); [rewrite (handler_frame_obj _ _ _ _ _ Ho); reflexivity|].
    unfold commit. cbn. rewrite (set_obj_same _ _ _ Ho). reflexivity. }
  assert (nth_error (objs e1) oid = Some (c_obj c1)) as Hn by exact (commit_nth _ _ _ _ _ Ho).
  rewrite Hn. unfold c2. cbn [obj_step stay c_obj c_effs]. unfold dispose.
  pose proof (set_obj_same _ _ _ Hn : commit e1 oid (c_obj c1) false = e1) as Hs.
  destruct (o_kind (c_obj c1)); try destruct (o_fut (c_obj c1)); cbn [fst snd]; rewrite ?Hs; reflexivity.
Qed.

Lemma close_one_none e sid oid : nth_error (objs e) oid = None -> close_one e sid oid = (finish_table e sid, []).
Proof. intro H. unfold close_one. rewrite H. reflexivity. Qed.

Lemma close_all_cons e sid oid r :
  close_all e ((sid, oid) :: r) =
  (fst (close_all (fst (close_one e sid oid)) r), snd (close_one e sid oid) ++ snd (close_all (fst (close_one e sid oid)) r)).
Proof. cbn [close_all]. destruct (close_one e sid oid) as [e1 x1]. cbn [fst snd]. destruct (close_all e1 r). reflexivity. Qed.

Lemma sweep_effects (P : list effect -> Prop) : P [] -> (forall a b, P a -> P b -> P (a ++ b)) ->
  (forall oid o sid, P (c_effs (obj_step oid o (OnFrame (sweep_frame sid) true)))) ->
  (forall oid o, P (c_effs (obj_step oid o OnDispose))) ->
  forall entries e, P (snd (close_all e entries)).
Proof.
  intros P0 Papp Pf Pd. induction entries as [|[sid oid] r IH]; intro e; [exact P0|].
  rewrite close_all_cons. cbn [snd]. apply Papp; [|apply IH].
  destruct (nth_error (objs e) oid) as [o|] eqn:Ho; [|rewrite (close_one_none e sid oid Ho); exact P0].
  rewrite (close_one_obj e sid oid o Ho). cbv zeta. cbn [snd]. apply Papp; [|apply Pd].
  destruct (is_requester (o_kind o)); [apply Pf|exact P0].
Qed.

Lemma local_step_effs u e l :
  snd (ep_step u e l) = [] \/
  (exists oid o, subject l = Some oid /\ nth_error (objs e) oid = Some o /\
                 snd (ep_step u e l) = c_effs (obj_step oid o (OnLocal l))) \/
  subject l = None.
Proof.
  destruct (subject l) as [oid|] eqn:Hs; [|right; right; reflexivity].
  destruct (nth_error (objs e) oid) as [o|] eqn:Ho.
  - right. left. exists oid, o. rewrite (local_step_obj u e l oid o Hs Ho). repeat split; assumption.
  - left. rewrite (local_step_none u e l oid Hs Ho). reflexivity.
Qed.

(* the set-up runs on the object just created for the request *)
Definition responder_kind (f : frame) : hkind :=
  match f with FRequestResponse _ _ _ _ _ => KRRResp | FRequestStream _ _ _ _ _ _ => KRSResp | _ => KChanResp end.

Definition admits (o : hobj) (i : input) : Prop :=
  match i with OnSetup f _ => exists hp, o = upd_sub (mk_obj (responder_kind f) (fsid f)) hp false | _ => True end.

Definition eff_oid (x : effect) : option nat :=
  match x with
  | XFut i _ _ _ | XCb i _ | XPub i _ | XAppFutCancel i => Some i
  | XEnq _ | XHandler _ _ _ | XRaised => None
  end.

Lemma unaddressed {B} (g : list effect -> B) oid : (forall x r, eff_oid x <> Some oid -> g (x :: r) = g r) ->
  forall effs, Forall (fun x => eff_oid x <> Some oid) effs -> g effs = g [].
Proof. intros Hg effs H. induction H as [|x r Hx _ IH]; [reflexivity|]. rewrite (Hg x r Hx). exact IH. Qed.

Ltac split_flags o :=
  repeat match goal with
         | |- context [o_fut o] => destruct (o_fut o) eqn:?; cbv beta iota
         | |- context [o_recv o] => destruct (o_recv o) eqn:?; cbv beta iota
         | |- context [o_has_sub o] => destruct (o_has_sub o) eqn:?; cbv beta iota
         | |- context [o_has_pub o] => destruct (o_has_pub o) eqn:?; cbv beta iota
         | |- context [o_responded o] => destruct (o_responded o) eqn:?; cbv beta iota
         end.

Ltac split_bools :=
  repeat match goal with
         | |- context [if ?b then _ else _] =>
             first [is_var b; destruct b | match b with context [?v] => is_var v; match type of v with bool => destruct v end end];
             cbn [orb andb negb]; cbv beta iota
         end.

(* [obj_cases o i], for variables o and i (generalise a concrete input first): case analysis on the transition
   [obj_step oid o i] of the goal: on the input (its constructor, the
   frame or label in it, an application result), on what the live branch reads of the object (its kind, equation Ek, and
   its flags, equations kept: [split_flags]) and on the booleans of the input that an [if] of the branch tests
   ([split_bools]; one the branch only passes on, like the COMPLETE flag inside an SNext, stays a variable).  A hypothesis [admits o i] makes the object of a set-up explicit.  Quantities of the statement that
   are to survive the split (a potential of o, say) should be folded when it is called; after unfolding them [use_eqs]
   rewrites with the equations kept (with every hypothesis [x = _] whose left side occurs in the goal).  A hypothesis
   that mentions a flag of o is rewritten by the split too (e.g. [o_recv o = true] becomes [false = true] in the other
   case). *)
Ltac obj_cases o i :=
  let c := fresh "c" in let E := fresh "E" in
  match goal with |- context [obj_step ?n o i] => remember (obj_step n o i) as c eqn:E; revert E end;
  destruct i as [f u|l|f hs|]; unfold obj_step;
  [unfold obj_frame; destruct f|unfold obj_local; destruct l
  |try match goal with H : admits _ _ |- _ => destruct H as (? & ->) end; unfold obj_setup; destruct f|unfold dispose];
  cbv beta iota;
  try match goal with r : appres |- _ => destruct r; cbv beta iota end;
  try match goal with |- context [match o_kind o with _ => _ end] => destruct (o_kind o) eqn:Ek; cbv beta iota end;
  split_flags o; split_bools; intros ->.

Ltac use_eqs := repeat match goal with H : ?x = _ |- context [?x] => rewrite H end.

Lemma obj_step_same oid o i : o_kind (c_obj (obj_step oid o i)) = o_kind o /\ o_sid (c_obj (obj_step oid o i)) = o_sid o.
Proof. obj_cases o i; rewrite <- ?Ek; split; reflexivity. Qed.

(* the fixed [enq_on sid] (EndpointProofs.v) is [Forall (queued_on sid)], by conversion *)
Definition queued_on (sid : N) (x : effect) : Prop := match x with XEnq g => fsid g = sid | _ => True end.

Definition own_effect (oid : nat) (sid : N) (x : effect) : Prop := (forall j, eff_oid x = Some j -> j = oid) /\ queued_on sid x.

Lemma obj_step_own oid o i : Forall (own_effect oid (o_sid o)) (c_effs (obj_step oid o i)).
Proof. obj_cases o i; repeat (constructor; [split; [cbn; congruence|first [exact I|reflexivity]]|]); constructor. Qed.

Lemma obj_step_addr oid o i : Forall (fun x => forall j, eff_oid x = Some j -> j = oid) (c_effs (obj_step oid o i)).
Proof. eapply Forall_impl; [|apply obj_step_own]. intros x H. apply H. Qed.
