(* C07: on_subscribe comes first — the first signal a subscriber ever receives is on_subscribe, over all histories. *)
From Coq Require Import Arith NArith List.
From RSV Require Import model.Endpoint proofs.EndpointObjects proofs.EndpointProofs.
Import ListNotations.

Fixpoint sigs (oid : nat) (effs : list effect) : list signal :=
  match effs with
  | [] => []
  | XCb j s :: r => (if Nat.eqb j oid then [s] else []) ++ sigs oid r
  | _ :: r => sigs oid r
  end.

Lemma sigs_app oid a b : sigs oid (a ++ b) = sigs oid a ++ sigs oid b.
Proof. induction a as [|x a IH]; [reflexivity|]. destruct x; cbn [app sigs]; rewrite ?IH, ?app_assoc; reflexivity. Qed.

Lemma sigs_other j oid s : j <> oid -> sigs oid [XCb j s] = [].
Proof. intro H. cbn [sigs]. apply Nat.eqb_neq in H. rewrite H. reflexivity. Qed.

Lemma sigs_skip oid x r : eff_oid x <> Some oid -> sigs oid (x :: r) = sigs oid r.
Proof. intro H. destruct x as [| |j ?| | | |]; try reflexivity. cbn [sigs]. destruct (Nat.eqb_spec j oid) as [->|_]; [destruct H|]; reflexivity. Qed.

(* [sub]: whether the object has a subscriber afterwards.  That it has none as long as nothing was signalled is what
   the induction over a history carries. *)
Definition first_ok (oid : nat) (effs : list effect) (sub : bool) : Prop :=
  match sigs oid effs with [] => sub = false | s :: _ => s = SSubscribe end.

Lemma obj_step_first oid o i : admits o i -> o_has_sub o = false ->
  first_ok oid (c_effs (obj_step oid o i)) (o_has_sub (c_obj (obj_step oid o i))).
Proof.
  intros Ha Hs. obj_cases o i; unfold first_ok; cbn; rewrite ?Nat.eqb_refl; cbn;
    first [assumption|reflexivity|discriminate Hs (* the branch is taken only with a subscriber *)].
Qed.

Definition has_subb (e : ep) (oid : nat) : bool :=
  match nth_error (objs e) oid with Some o => o_has_sub o | None => false end.

Lemma elem_first oid sid e x e' : elem sid e x e' -> has_subb e oid = false -> first_ok oid x (has_subb e' oid).
Proof.
  intros H Hs. unfold has_subb in *. destruct (elem_at_object oid _ _ _ _ H) as [o i Ho _ _ Ha -> -> ->|k hp _ -> ->|Hsame Hx].
  - rewrite Ho in Hs. exact (obj_step_first oid o i Ha Hs).
  - reflexivity.
  - unfold first_ok. rewrite (unaddressed (sigs oid) oid (sigs_skip oid) x Hx), Hsame. exact Hs.
Qed.

Lemma trans_first oid (S : N -> Prop) e x e' : trans S e x e' -> has_subb e oid = false -> first_ok oid x (has_subb e' oid).
Proof.
  induction 1 as [|sid e x e1 y e2 _ He _ IH]; intro Hs; [exact Hs|].
  pose proof (elem_first oid _ _ _ _ He Hs) as H. unfold first_ok in *. rewrite sigs_app.
  destruct (sigs oid x); [exact (IH H)|exact H].
Qed.

Theorem run_first ls e oid : Inv e -> has_subb e oid = false ->
  match sigs oid (concat (snd (ep_run e ls))) with [] => True | s :: _ => s = SSubscribe end.
Proof.
  intros I Hs. pose proof (trans_first oid _ _ _ _ (run_trans ls e I) Hs) as H. unfold first_ok in H.
  destruct (sigs oid _); [exact Logic.I|exact H].
Qed.
