(* Proofs about model/Metadata.v (C18).  Each codec is a loop over items; for each kind of item one lemma says that a
   well-formed item is written as a chunk which its parser reads back off the front of any buffer (header_roundtrip: a type
   name, on any table that passes table_ok; a tag inside tags_roundtrip; entry_roundtrip: an entry), and the loops follow
   by induction, the composite one on its equation without fuel (decode_cons). *)
From Coq Require Import ZArith List Bool Lia Strings.Byte.
From RSV Require Import lib.Bytes gen.GenMime model.Frame model.Metadata.
Import ListNotations.
Import Strings.String.StringSyntax.
Open Scope N_scope.

(* [injection] would also unfold [be] at a literal width *)
Lemma Some_inj {A} (a b : A) : Some a = Some b -> a = b.
Proof. congruence. Qed.

Lemma last_match {A B} (p : A -> bool) (f : A -> B) t :
  fold_left (fun acc x => if p x then Some (f x) else acc) t None = option_map f (find p (rev t)).
Proof.
  induction t as [|x t IH] using rev_ind; [reflexivity|].
  rewrite fold_left_app, rev_unit. cbn. destruct (p x); [reflexivity|exact IH].
Qed.

Lemma dict_get_In {V} (t : list (bytes * V)) k v : dict_get t k = Some v -> In (k, v) t.
Proof.
  unfold dict_get. rewrite last_match. destruct (find _ _) as [[k' v']|] eqn:E; [|discriminate].
  apply find_some in E. destruct E as [Hin E]. apply bytes_eqb_eq in E. intros [= <-]. subst k. apply in_rev, Hin.
Qed.

Lemma dict_get_None {V} (t : list (bytes * V)) k : dict_get t k = None -> forall v, ~ In (k, v) t.
Proof.
  unfold dict_get. rewrite last_match. destruct (find _ _) eqn:E; [discriminate|]. intros _ v Hin.
  apply in_rev, (find_none _ _ E) in Hin. cbn in Hin. rewrite (proj2 (bytes_eqb_eq k k) eq_refl) in Hin. discriminate.
Qed.

Lemma dict_get_id_In (t : list (bytes * Z)) i n : dict_get_id t i = Some n -> In (n, i) t.
Proof.
  unfold dict_get_id. rewrite last_match. destruct (find _ _) as [[n' i']|] eqn:E; [|discriminate].
  apply find_some in E. destruct E as [Hin E]. apply Z.eqb_eq in E. intros [= <-]. subst i. apply in_rev, Hin.
Qed.

Lemma opt_Z_eqb_eq a b : opt_Z_eqb a b = true -> a = b.
Proof. destruct a, b; cbn; try discriminate; try reflexivity. intro H. apply Z.eqb_eq in H. congruence. Qed.
Lemma opt_bytes_eqb_eq a b : opt_bytes_eqb a b = true -> a = b.
Proof. destruct a, b; cbn; try discriminate; try reflexivity. intro H. apply bytes_eqb_eq in H. congruence. Qed.

Lemma nodupb_NoDup {A} (eqb : A -> A -> bool) (l : list A) :
  (forall x y, eqb x y = true <-> x = y) -> nodupb eqb l = true -> NoDup l.
Proof.
  intro Hs. induction l as [|x r IH]; intro H; [constructor|].
  cbn [nodupb] in H. apply andb_true_iff in H. destruct H as [H1 H2]. constructor; [|auto].
  intro Hin. apply negb_true_iff in H1. assert (existsb (eqb x) r = true); [|congruence].
  apply existsb_exists. exists x. split; [exact Hin|]. apply Hs. reflexivity.
Qed.

Lemma mime_table_ok : table_ok mime_table reserved_names = true.
Proof. vm_compute. reflexivity. Qed.
Lemma auth_table_ok : table_ok auth_table [] = true.
Proof. vm_compute. reflexivity. Qed.

Definition table_bijective (tbl : list (bytes * Z)) (reserved : list bytes) : Prop :=
  NoDup (map fst tbl) /\ NoDup (map snd tbl) /\
  (forall n id, In (n, id) tbl -> (0 <= id <= 127)%Z \/ In n reserved) /\
  (forall n id, dict_get tbl n = Some id <-> In (n, id) tbl) /\
  (forall n id, dict_get_id tbl id = Some n <-> In (n, id) tbl) /\
  (forall n id, dict_get tbl n = Some id <-> dict_get_id tbl id = Some n).

Lemma table_ok_bijective tbl reserved : table_ok tbl reserved = true -> table_bijective tbl reserved.
Proof.
  unfold table_ok. rewrite !andb_true_iff, !forallb_forall. intros [[[Hn Hi] Hr] Hl].
  assert (Hg : forall n id, dict_get tbl n = Some id <-> In (n, id) tbl).
  { split; [apply dict_get_In|]. intro Hin. apply Hl, andb_true_iff, proj1, opt_Z_eqb_eq in Hin. exact Hin. }
  assert (Hd : forall n id, dict_get_id tbl id = Some n <-> In (n, id) tbl).
  { split; [apply dict_get_id_In|]. intro Hin. apply Hl, andb_true_iff, proj2, opt_bytes_eqb_eq in Hin. exact Hin. }
  refine (conj _ (conj _ (conj _ (conj Hg (conj Hd _))))); [| | |intros n id; rewrite Hg, Hd; reflexivity].
  - apply (nodupb_NoDup bytes_eqb); [apply bytes_eqb_eq|exact Hn].
  - apply (nodupb_NoDup Z.eqb); [apply Z.eqb_eq|exact Hi].
  - intros n id Hin. apply Hr, orb_true_iff in Hin. cbn in Hin. destruct Hin as [Hin|Hin]; [left; lia|right].
    apply existsb_exists in Hin. destruct Hin as (x & Hx & E). apply bytes_eqb_eq in E. subst. exact Hx.
Qed.

Lemma header_bytes z r : (0 <= z <= 127)%Z ->
  parse_type (known_header z :: r) = Some (true, Z.to_N z) /\ parse_type (custom_header z :: r) = Some (false, Z.to_N z).
Proof.
  intro H.
  assert (C : forallb (fun k => (Byte.to_N (known_header (Z.of_nat k)) =? 128 + N.of_nat k) &&
                               (Byte.to_N (custom_header (Z.of_nat k)) =? N.of_nat k)) (seq 0 128) = true)
    by (vm_compute; reflexivity).
  rewrite forallb_forall in C. specialize (C (Z.to_nat z)). rewrite in_seq, Z2Nat.id in C by lia.
  unfold parse_type. split; repeat f_equal; lia.
Qed.

(* the table is a variable: MIME names (name_roundtrip) and authentication types (auth_decodes) both go through this *)
Lemma header_roundtrip tbl reserved n : table_ok tbl reserved = true ->
  match dict_get tbl n with Some id => (0 <= id <= 127)%Z | None => 1 <= lenN n <= 128 end ->
  exists h, ser_wk tbl n = Some h /\ h <> [] /\
            forall rest, parse_wk (fun i => dict_get_id tbl (Z.of_N i)) (h ++ rest) = Some (n, lenN h).
Proof.
  intro Ht. apply table_ok_bijective in Ht. destruct Ht as (_ & _ & _ & _ & _ & Hinv).
  unfold ser_wk, ser_128max, parse_wk. destruct (dict_get tbl n) as [id|] eqn:Eg; intro Hw.
  - eexists. split; [reflexivity|]. split; [discriminate|]. intro rest. cbn [app].
    destruct (header_bytes id rest Hw) as [-> _]. apply Hinv in Eg. rewrite Z2N.id, Eg by lia. reflexivity.
  - unfold lenN in Hw. destruct (Z.gtb_spec (Z.of_nat (length n) - 1) 127) as [|_]; [lia|].
    eexists. split; [reflexivity|]. split; [discriminate|]. intro rest. cbn [app tl].
    destruct (header_bytes (Z.of_nat (length n) - 1) (n ++ rest)) as [_ ->]; [lia|].
    replace (Z.to_N (Z.of_nat (length n) - 1) + 1) with (lenN n) by (unfold lenN; lia).
    rewrite takeN_app_exact, lenN_cons. reflexivity.
Qed.

Lemma name_roundtrip n : wf_name n = true ->
  exists h, ser_wk mime_table n = Some h /\ h <> [] /\
            forall rest, parse_wk mime_name_of_id (h ++ rest) = Some (n, lenN h).
Proof.
  intro Hw. apply (header_roundtrip _ _ n mime_table_ok). unfold wf_name, mime_id_of_name in Hw.
  destruct (dict_get mime_table n); lia.
Qed.

Lemma ser_wk_overlong n : overlong_name n = true -> ser_wk mime_table n = None.
Proof.
  unfold overlong_name, ser_wk, mime_id_of_name, ser_128max, lenN. destruct (dict_get mime_table n); [discriminate|].
  intro H. destruct (Z.gtb_spec (Z.of_nat (length n) - 1) 127); [reflexivity|lia].
Qed.

Lemma tags_roundtrip : forall tags s f, ser_tags tags = Some s -> (length s <= f)%nat -> parse_tags f s = tags.
Proof.
  induction tags as [|t r IH]; intros s f E Hf.
  - injection E as <-. destruct f; reflexivity.
  - cbn [ser_tags] in E. destruct (N.ltb_spec 255 (lenN t)) as [|Ht]; [discriminate|].
    destruct (ser_tags r) as [s'|] eqn:Er; [|discriminate]. injection E as <-.
    destruct f as [|f]; [cbn in Hf; lia|]. cbn [parse_tags].
    rewrite to_N_byte_of_N. rewrite N.mod_small by lia.
    rewrite takeN_app_exact, dropN_app_exact. f_equal. apply IH; [reflexivity|].
    cbn [length] in Hf. rewrite app_length in Hf. lia.
Qed.

Lemma parse_mimes_step f buf : buf <> [] -> parse_mimes (S f) buf =
  match parse_wk mime_name_of_id buf with
  | None => None
  | Some (n, off) => match parse_mimes f (dropN buf off) with Some l => Some (n :: l) | None => None end
  end.
Proof. destruct buf; [congruence|reflexivity]. Qed.

Lemma mimes_roundtrip : forall encs s f, forallb wf_name encs = true -> ser_mimes encs = Some s ->
  (length s <= f)%nat -> parse_mimes f s = Some encs.
Proof.
  induction encs as [|e r IH]; intros s f Hw E Hf.
  - injection E as <-. destruct f; reflexivity.
  - cbn [forallb] in Hw. apply andb_true_iff in Hw. destruct Hw as [He Hr].
    destruct (name_roundtrip e He) as (h & Eh & Hne & Dh).
    cbn [ser_mimes] in E. rewrite Eh in E. destruct (ser_mimes r) as [s'|] eqn:Er; [|discriminate].
    injection E as <-. rewrite app_length in Hf.
    destruct h as [|b h]; [congruence|]. destruct f as [|f]; [cbn in Hf; lia|].
    rewrite parse_mimes_step by discriminate.
    rewrite Dh, dropN_app_exact, (IH s' f Hr eq_refl) by (cbn in Hf; lia). reflexivity.
Qed.

Lemma auth_types a :
  dict_get auth_table (auth_type a) = Some (match a with ASimple _ _ => 0 | ABearer _ => 1 end)%Z /\
  dict_get auth_factory_table (auth_type a) = Some (match a with ASimple _ _ => 1 | ABearer _ => 2 end).
Proof. destruct a; split; vm_compute; reflexivity. Qed.

Lemma auth_decodes a body : entry_body (EAuth a) = Some body ->
  parse_auth body = Some match a with
                         | ASimple u p => let k := lenN u mod 65536 in ASimple (takeN (u ++ p) k) (dropN (u ++ p) k)
                         | ABearer t => a
                         end.
Proof.
  destruct (auth_types a) as [Ei Ef].
  destruct (header_roundtrip _ _ (auth_type a) auth_table_ok) as (h & Eh & _ & Dh); [rewrite Ei; destruct a; lia|].
  cbn [entry_body]. rewrite Eh. unfold parse_auth, auth_name_of_id.
  destruct a as [u p|t]; cbn [ser_auth_body]; [destruct (lenN u <? 4294967296); [|discriminate]|];
    intro E; apply Some_inj in E; subst body; rewrite Dh, Ef, dropN_app_exact; cbn [N.eqb Pos.eqb];
    [rewrite get_be_be|]; reflexivity.
Qed.

Lemma typed_ctor_kinds :
  typed_kind (ctor_encoding 1) = Some 1 /\ typed_kind (ctor_encoding 2) = Some 2 /\
  typed_kind (ctor_encoding 3) = Some 3 /\ typed_kind (ctor_encoding 4) = Some 4 /\
  wf_name (ctor_encoding 1) = true /\ wf_name (ctor_encoding 2) = true /\
  wf_name (ctor_encoding 3) = true /\ wf_name (ctor_encoding 4) = true.
Proof. repeat split; vm_compute; reflexivity. Qed.

Lemma wf_entry_split e : wf_entry e = true ->
  (exists b, entry_body e = Some b /\ lenN b < 16777216) /\
  match e with
  | EItem enc _ => wf_name enc = true /\ typed_kind enc = None
  | ERouting tags => forallb (fun t => lenN t <=? 255) tags = true
  | EDataMime enc => wf_name enc = true
  | EAcceptMimes encs => forallb wf_name encs = true
  | EAuth (ASimple u _) => lenN u < 65536
  | EAuth (ABearer _) => True
  end.
Proof.
  unfold wf_entry, body_fits. rewrite andb_true_iff. intros [Hf Hw]. split.
  - destruct (entry_body e) as [b|]; [|discriminate]. exists b. split; [reflexivity|lia].
  - destruct e as [enc c|tags|enc|encs|[u p|t]]; auto; [|lia].
    apply andb_true_iff in Hw. destruct (typed_kind enc); [destruct Hw; discriminate|tauto].
Qed.

Lemma item_roundtrip e body : wf_entry e = true -> entry_body e = Some body ->
  parse_item (entry_encoding e) body = Some e.
Proof.
  destruct typed_ctor_kinds as (K1 & K2 & K3 & K4 & _).
  intros Hw Eb. apply wf_entry_split in Hw. destruct Hw as [_ Hw].
  destruct e as [enc c|tags|enc|encs|a]; cbn [entry_encoding]; unfold parse_item;
    rewrite ?K1, ?K2, ?K3, ?K4; cbn [N.eqb Pos.eqb].
  - destruct Hw as [_ ->]. cbn [entry_body] in Eb. congruence.
  - rewrite (tags_roundtrip tags body _ Eb (le_n _)). reflexivity.
  - destruct (name_roundtrip enc Hw) as (h & E & _ & D). cbn [entry_body] in Eb. rewrite Eb in E. injection E as <-.
    rewrite <- (app_nil_r body), D. reflexivity.
  - rewrite (mimes_roundtrip encs body _ Hw Eb (le_n _)). reflexivity.
  - rewrite (auth_decodes a body Eb). destruct a as [u p|t]; [|reflexivity]. cbv zeta.
    rewrite N.mod_small, takeN_app_exact, dropN_app_exact by exact Hw. reflexivity.
Qed.

Lemma entry_header_wf e : wf_entry e = true -> wf_name (entry_encoding e) = true.
Proof.
  destruct typed_ctor_kinds as (_ & _ & _ & _ & W1 & W2 & W3 & W4).
  intro Hw. apply wf_entry_split in Hw. destruct e; cbn [entry_encoding]; tauto.
Qed.

(* fuel = length suffices and more fuel changes nothing, so cm_decode satisfies the loop equation of
   CompositeMetadata.parse without any fuel (decode_cons), and the round trip is proved on that *)
Definition dec_entry (buf : bytes) : option (entry * bytes) :=
  match parse_wk mime_name_of_id buf with
  | None => None
  | Some (enc, off) =>
      match get_be 3 (dropN buf off) with
      | None => None
      | Some (len, r2) => match parse_item enc (takeN r2 len) with Some e => Some (e, dropN r2 len) | None => None end
      end
  end.

Lemma cm_decode_fuel_cons f buf : buf <> [] -> cm_decode_fuel (S f) buf =
  match dec_entry buf with Some (e, rest) => option_map (cons e) (cm_decode_fuel f rest) | None => None end.
Proof.
  destruct buf; [congruence|]. intros _. cbn [cm_decode_fuel]. unfold dec_entry.
  destruct (parse_wk _ _) as [[enc off]|]; [|reflexivity]. destruct (get_be _ _) as [[len r2]|]; [|reflexivity].
  destruct (parse_item _ _); reflexivity.
Qed.

Lemma dec_entry_shrinks buf e rest : dec_entry buf = Some (e, rest) -> (length rest < length buf)%nat.
Proof.
  unfold dec_entry. destruct (parse_wk _ _) as [[enc off]|]; [|discriminate].
  destruct (get_be _ _) as [[len r2]|] eqn:Eg; [|discriminate]. destruct (parse_item _ _); [|discriminate].
  intros [= _ <-]. apply get_be_length in Eg. rewrite dropN_length in *. lia.
Qed.

Lemma decode_fuel2 : forall f1 f2 buf, (length buf <= f1)%nat -> (length buf <= f2)%nat ->
  cm_decode_fuel f1 buf = cm_decode_fuel f2 buf.
Proof.
  induction f1 as [|f1 IH]; intros f2 [|b r] H1 H2; try (destruct f2; reflexivity); [cbn in H1; lia|].
  destruct f2 as [|f2]; [cbn in H2; lia|]. rewrite !cm_decode_fuel_cons by discriminate.
  destruct (dec_entry (b :: r)) as [[e rest]|] eqn:E; [|reflexivity]. apply dec_entry_shrinks in E.
  rewrite (IH f2 rest) by (cbn [length] in *; lia). reflexivity.
Qed.

Theorem decode_total : forall bs f, (length bs <= f)%nat -> cm_decode_fuel f bs = cm_decode bs.
Proof. intros bs f H. apply decode_fuel2; [exact H|apply le_n]. Qed.

Lemma decode_cons buf : buf <> [] -> cm_decode buf =
  match dec_entry buf with Some (e, rest) => option_map (cons e) (cm_decode rest) | None => None end.
Proof.
  intro H. unfold cm_decode at 1. destruct buf as [|b r]; [congruence|]. cbn [length].
  rewrite cm_decode_fuel_cons by exact H. destruct (dec_entry (b :: r)) as [[e rest]|] eqn:E; [|reflexivity].
  apply dec_entry_shrinks in E. rewrite decode_total by (cbn [length] in E; lia). reflexivity.
Qed.

Lemma decode_first n h v tail : wf_name n = true -> ser_wk mime_table n = Some h ->
  cm_decode (h ++ be 3 v ++ tail) =
  let k := v mod 16777216 in
  match parse_item n (takeN tail k) with Some e => option_map (cons e) (cm_decode (dropN tail k)) | None => None end.
Proof.
  intros Hn Eh. destruct (name_roundtrip n Hn) as (h' & E & Hne & D). rewrite Eh in E. injection E as <-.
  rewrite decode_cons by (destruct h; [congruence|discriminate]).
  unfold dec_entry. rewrite D, dropN_app_exact, get_be_be. cbv zeta. destruct (parse_item _ _); reflexivity.
Qed.

(* 2^32: struct.pack('>I', n) of the native back end; 2^24: cbitstruct's u24 *)
Lemma pack24_small bk n : n < 16777216 -> pack24 bk n = Some (be 3 n).
Proof. intro H. destruct bk; cbn [pack24]; [destruct (N.ltb_spec n 4294967296)|destruct (N.ltb_spec n 16777216)]; (reflexivity || lia). Qed.

Lemma entry_roundtrip e : wf_entry e = true ->
  exists x, (forall bk, enc_entry bk e = Some x) /\ forall rest, cm_decode (x ++ rest) = option_map (cons e) (cm_decode rest).
Proof.
  intro Hw. pose proof (entry_header_wf e Hw) as Hn. destruct (name_roundtrip _ Hn) as (h & Eh & _).
  destruct (wf_entry_split e Hw) as [(b & Eb & Hb) _].
  exists (h ++ be 3 (lenN b) ++ b). split.
  - intro bk. unfold enc_entry. rewrite Eh, Eb, pack24_small by exact Hb. reflexivity.
  - intro rest. rewrite <- !app_assoc, (decode_first _ _ _ _ Hn Eh). cbv zeta.
    rewrite N.mod_small, takeN_app_exact, dropN_app_exact, (item_roundtrip e b Hw Eb) by exact Hb. reflexivity.
Qed.

(* the encoding of a well-formed list is read back off the front of any buffer *)
Theorem roundtrip_app : forall bk items, wf_cm items = true ->
  exists bs, cm_encode_bk bk items = Some bs /\ forall rest, cm_decode (bs ++ rest) = option_map (app items) (cm_decode rest).
Proof.
  induction items as [|e r IH]; cbn [wf_cm forallb cm_encode_bk]; intro Hw.
  - exists []. split; [reflexivity|]. intro rest. cbn [app]. destruct (cm_decode rest); reflexivity.
  - apply andb_true_iff in Hw. destruct Hw as [He Hr].
    destruct (entry_roundtrip e He) as (x & Ex & Dx), (IH Hr) as (y & Ey & Dy).
    exists (x ++ y). rewrite Ex, Ey. split; [reflexivity|]. intro rest. rewrite <- app_assoc, Dx, Dy.
    destruct (cm_decode rest); reflexivity.
Qed.

(* C18_roundtrip (either back end) *)
Theorem roundtrip_bk : forall bk items, wf_cm items = true ->
  exists bs, cm_encode_bk bk items = Some bs /\ cm_decode bs = Some items.
Proof.
  intros bk items Hw. destruct (roundtrip_app bk items Hw) as (bs & E & D). exists bs. split; [exact E|].
  rewrite <- (app_nil_r bs), D. change (cm_decode []) with (Some (@nil entry)). cbn [option_map]. rewrite app_nil_r. reflexivity.
Qed.

Lemma ser_mimes_overlong : forall encs, existsb overlong_name encs = true -> ser_mimes encs = None.
Proof.
  induction encs as [|e r IH]; [discriminate|]. cbn [existsb ser_mimes]. intro H.
  apply orb_true_iff in H. destruct H as [H|H].
  - rewrite (ser_wk_overlong _ H). reflexivity.
  - rewrite (IH H). destruct (ser_wk mime_table e); reflexivity.
Qed.

Lemma ser_tags_overlong : forall tags, existsb (fun t => 255 <? lenN t) tags = true -> ser_tags tags = None.
Proof.
  induction tags as [|t r IH]; [discriminate|]. cbn [existsb ser_tags]. intro H.
  apply orb_true_iff in H. destruct H as [H|H].
  - rewrite H. reflexivity.
  - rewrite (IH H). destruct (255 <? lenN t); reflexivity.
Qed.

Lemma encode_fails bk items e : In e items -> enc_entry bk e = None -> cm_encode_bk bk items = None.
Proof.
  induction items as [|x r IH]; intros Hin He; [destruct Hin|]. cbn [cm_encode_bk].
  destruct Hin as [->|Hin]; [rewrite He; reflexivity|]. rewrite (IH Hin He). destruct (enc_entry bk x); reflexivity.
Qed.

Lemma enc_entry_overlong bk e : has_overlong e = true -> enc_entry bk e = None.
Proof.
  unfold enc_entry. destruct e as [enc c|tags|enc|encs|a]; cbn [has_overlong entry_encoding entry_body]; intro H;
    [|rewrite (ser_tags_overlong _ H)| |rewrite (ser_mimes_overlong _ H)|discriminate];
    rewrite ?(ser_wk_overlong _ H); try reflexivity; destruct (ser_wk mime_table _); reflexivity.
Qed.

Lemma encode_one bk e h b : ser_wk mime_table (entry_encoding e) = Some h -> entry_body e = Some b ->
  cm_encode_bk bk [e] = match pack24 bk (lenN b) with Some l => Some ((h ++ l ++ b) ++ []) | None => None end.
Proof. intros Eh Eb. cbn [cm_encode_bk]. unfold enc_entry. rewrite Eh, Eb. destruct (pack24 _ _); reflexivity. Qed.

(* C18_hypotheses_needed: every hypothesis of wf_cm is needed.
   A custom name of 0 bytes: header byte (-1) & 0x7f = 127 announces 128 name bytes *)
Example ex_empty_name : rt_fails [EItem [] [x01]].
Proof. right. eexists. split; [vm_compute; reflexivity|vm_compute; discriminate]. Qed.
Example ex_name_129 : rt_fails [EItem (repeat x61 129) [x01]].
Proof. left. vm_compute. reflexivity. Qed.
(* the reserved rows: ids -2 / -1 are written as 0xFE / 0xFF and come back as ROUTING / COMPOSITE_METADATA *)
Example ex_reserved_1 : rt_fails [EItem (ascii "UNPARSEABLE_MIME_TYPE_DO_NOT_USE") [x01; x61]].
Proof. right. eexists. split; [vm_compute; reflexivity|vm_compute; discriminate]. Qed.
Example ex_reserved_2 : rt_fails [EDataMime (ascii "UNKNOWN_YET_RESERVED_DO_NOT_USE")].
Proof. right. eexists. split; [vm_compute; reflexivity|vm_compute; discriminate]. Qed.
(* a generic item carrying the MIME type of a typed entry is decoded as that typed entry *)
Example ex_typed_name : rt_fails [EItem (ascii "message/x.rsocket.routing.v0") [x01; x61]].
Proof. right. eexists. split; [vm_compute; reflexivity|vm_compute; discriminate]. Qed.
Example ex_typed_name_raises : exists bs,
  cm_encode [EItem (ascii "message/x.rsocket.authentication.v0") []] = Some bs /\ cm_decode bs = None.
Proof. eexists. split; [vm_compute; reflexivity|vm_compute; reflexivity]. Qed.
Example ex_tag_256 : rt_fails [ERouting [repeat x61 256]].
Proof. left. vm_compute. reflexivity. Qed.

(* a user name of 2^16 bytes or more (that still fits): its 16-bit length wraps, and a shorter name comes back *)
Lemma username_wraps u p : 65536 <= lenN u -> lenN u + lenN p + 3 < 16777216 -> rt_fails [EAuth (ASimple u p)].
Proof.
  intros Hu Hl. right.
  destruct typed_ctor_kinds as (_ & _ & _ & K4 & _ & _ & _ & W4).
  destruct (name_roundtrip _ W4) as (h & Eh & _).
  assert (Hs : ser_wk auth_table auth_simple_type = Some [x80]) by (vm_compute; reflexivity).
  assert (Eb : entry_body (EAuth (ASimple u p)) = Some ([x80] ++ be 2 (lenN u) ++ u ++ p)).
  { cbn [entry_body auth_type ser_auth_body]. rewrite Hs. destruct (N.ltb_spec (lenN u) 4294967296); [reflexivity|lia]. }
  set (b := [x80] ++ _) in Eb.
  assert (Hb : lenN b < 16777216) by (unfold b; rewrite !lenN_app, lenN_be, lenN_cons, lenN_nil; lia).
  eexists. split; [unfold cm_encode; rewrite (encode_one _ (EAuth _) _ _ Eh Eb), pack24_small by exact Hb; reflexivity|].
  rewrite <- !app_assoc, (decode_first _ _ _ _ W4 Eh). cbv zeta. rewrite N.mod_small, takeN_app_exact by exact Hb.
  unfold parse_item. cbn [entry_encoding]. rewrite K4. cbn [N.eqb Pos.eqb]. rewrite (auth_decodes _ _ Eb). cbv zeta.
  destruct (cm_decode _); [|discriminate]. intros [= E _].
  pose proof (lenN_takeN (u ++ p) (lenN u mod 65536)) as Hs'. rewrite E in Hs'. lia.
Qed.

Example ex_username_65536 : rt_fails [EAuth (ASimple user_65536 [x62])].
Proof. apply username_wraps; unfold lenN, user_65536; rewrite repeat_length; cbn [length]; lia. Qed.

(* an entry body of 2^24 bytes: cbitstruct refuses; the native struct back end writes length 0 and the body is
   then parsed as further entries *)
Example ex_body_2p24 : forall c, lenN c = 16777216 ->
  cm_encode_bk Cbit [EItem [x61] c] = None /\
  exists bs, cm_encode_bk Native [EItem [x61] c] = Some bs /\ cm_decode bs <> Some [EItem [x61] c].
Proof.
  intros c Hc.
  assert (Hh : ser_wk mime_table [x61] = Some [x00; x61]) by (vm_compute; reflexivity).
  assert (Hn : wf_name [x61] = true) by (vm_compute; reflexivity).
  assert (Hk : typed_kind [x61] = None) by (vm_compute; reflexivity).
  rewrite !(encode_one _ (EItem [x61] c) _ c Hh eq_refl), Hc. split; [reflexivity|].
  eexists. split; [reflexivity|]. rewrite <- !app_assoc, (decode_first _ _ _ _ Hn Hh).
  cbv zeta. unfold parse_item. rewrite Hk. destruct (cm_decode _); [|discriminate].
  intros [= E _].
  pose proof (lenN_takeN (c ++ []) (16777216 mod 16777216)) as Hs. rewrite E, Hc in Hs. lia.
Qed.
