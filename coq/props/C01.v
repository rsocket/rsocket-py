(* C01 — End-to-end payload delivery and request/response correlation.
   The pipeline theorems are proved in proofs/PipelineProofs.v and proofs/PipelinePrio.v, composing the layer theorems: send
   queue (C05: per-stream wire order), fragmenter and reassembly (C03), codec (C02: decode (encode f) = norm f), byte-stream
   parser (C04: chunking independence, exactness).  Model: model/Pipeline.v over model/SendQueue.v, Fragmenter.v, Frame.v,
   Parser.v.
   Above the pipeline: model/Network.v joins two endpoints (model/Endpoint.v, the model the C07..C12 trace
   correspondences tie to the code) by links with exactly the guarantee C01_end_to_end gives — per stream first in first
   out, streams may overtake each other — and the C01_network_* theorems (proofs/NetworkProofs.v, NetworkRequests.v,
   NetworkExact.v; those that are a case of a more general theorem there are derived here) follow every payload
   from the application's call on one side to the handler / subscriber / awaitable on the other. *)
From Coq Require Import NArith List Bool Init.Byte.
From RSV Require Import proofs.EndpointObjects proofs.EndpointWire gen.GenConst lib.Bytes model.Frame model.Fragmenter model.SendQueue model.Pipeline model.Endpoint model.Network proofs.FragmenterProofs proofs.SendQueueProofs proofs.PipelineProofs proofs.PipelinePrio proofs.NetworkProofs proofs.NetworkRequests proofs.NetworkExact.
Import ListNotations.
Open Scope N_scope.

(* what "delivered intact" means for one frame: same type, stream, flags, request-n, metadata and data (a fragmentable
   frame's FOLLOWS bit is reassembly residue nothing reads); any other frame arrives as it is *)
Theorem C01_delivered_as_def : forall f R, delivered_as f R <->
  if is_fragmentable f then
    ftype R = ftype f /\ fsid R = fsid f /\ fign R = fign f /\ freqn R = freqn f /\
    fmd R = fmd f /\ fdata R = fdata f /\ fcomplete R = fcomplete f
  else R = f.
Proof. intros f R. unfold delivered_as. reflexivity. Qed.
Print Assumptions C01_delivered_as_def.

(* END TO END, byte-stream framing.  For EVERY history ls of send_frame calls and sender steps (any frames on any
   streams, queued at any moment relative to the sender's progress) after which the sender has written what it was given,
   EVERY fragment size >= 64 or none, EVERY chunking of the resulting byte stream (single bytes, cuts inside a length
   prefix, many frames per read), both codec back ends, and EVERY stream k: the complete frames the receiving pipeline
   (FrameParser, FrameFragmentCache) hands to dispatch on stream k are exactly the frames queued on k — one for one, in
   order, each delivered intact.  Nothing lost, duplicated, reordered within the stream, merged with or moved to
   another stream. *)
Theorem C01_end_to_end : forall bk size lenreq ls chunks k,
  size_ok size -> no_prio ls ->
  let s := qrun size lenreq ls in
  (forall j, pending (q s) j = []) ->
  Forall (fun f => wf f = true /\ lenN (encode f) < 2 ^ 24) (wire s) ->
  concat chunks = wire_bytes (wire s) ->
  Forall2 delivered_as (on k (enqueued ls)) (on k (receive bk chunks)).
Proof. exact end_to_end. Qed.
Print Assumptions C01_end_to_end.

(* The same for histories WITH send_priority_frame calls (SETUP is queued that way, on stream 0, possibly while requests are
   already waiting — connect and every reconnect): for every stream k no priority frame is queued on, and asking only that
   what was queued for stream k itself has been written. *)
Theorem C01_end_to_end_with_priority : forall bk size lenreq ls chunks k,
  size_ok size -> Forall (fun l => match l with QPrio f => fsid f <> k | _ => True end) ls ->
  let s := qrun size lenreq ls in
  pending (q s) k = [] ->
  Forall (fun f => wf f = true /\ lenN (encode f) < 2 ^ 24) (wire s) ->
  concat chunks = wire_bytes (wire s) ->
  Forall2 delivered_as (on k (enqueued ls)) (on k (receive bk chunks)).
Proof. intros bk size lenreq ls chunks k Hs Hn. apply receive_queued, prio_off_In, Hn. exact Hs. Qed.
Print Assumptions C01_end_to_end_with_priority.

Theorem C01_end_to_end_messages_with_priority : forall size lenreq ls k,
  size_ok size -> Forall (fun l => match l with QPrio f => fsid f <> k | _ => True end) ls ->
  let s := qrun size lenreq ls in
  pending (q s) k = [] ->
  Forall2 delivered_as (on k (enqueued ls)) (on k (snd (rx [] (map norm (wire s))))).
Proof. intros size lenreq ls k Hs Hn. apply rx_queued, prio_off_In, Hn. exact Hs. Qed.
Print Assumptions C01_end_to_end_messages_with_priority.

(* non-vacuity: a fragmented request partly written, then a priority frame, then the rest: stream 1 is written out *)
Theorem C01_priority_example :
  let s := qrun (Some 64) true ex_prio in
  prio_off 1 ex_prio /\ ~ no_prio ex_prio /\ pending (q s) 1 = [] /\
  map ftype (wire s) = [FT_REQUEST_RESPONSE; FT_KEEPALIVE; FT_PAYLOAD; FT_PAYLOAD].
Proof. exact end_to_end_prio_example. Qed.
Print Assumptions C01_priority_example.

(* message framing (one frame per message) *)
Theorem C01_end_to_end_messages : forall size lenreq ls k,
  size_ok size -> no_prio ls ->
  let s := qrun size lenreq ls in
  (forall j, pending (q s) j = []) ->
  Forall2 delivered_as (on k (enqueued ls)) (on k (snd (rx [] (map norm (wire s))))).
Proof. intros size lenreq ls k Hs Hn s Hd. apply rx_queued; [exact Hs|exact (no_prio_In k ls Hn)|apply Hd]. Qed.
Print Assumptions C01_end_to_end_messages.

(* the receiver's answers on a stream depend only on that stream's frames, whatever is interleaved with them *)
Theorem C01_streams_independent : forall k fs c1 c2, EndpointProofs.CWF c1 -> EndpointProofs.CWF c2 ->
  cache_get c1 k = cache_get c2 k ->
  on k (snd (rx c1 fs)) = snd (rx c2 (on k fs)) /\ cache_get (fst (rx c1 fs)) k = cache_get (fst (rx c2 (on k fs))) k.
Proof. exact rx_stream. Qed.
Print Assumptions C01_streams_independent.

(* non-vacuity: a 150-byte payload fragmented at 64, interleaved with a request on another stream, read in three
   odd chunks: the premises hold and the payload arrives whole *)
Theorem C01_example :
  let s := qrun (Some 64) true ex_ls in
  (forall j, pending (q s) j = []) /\ length (wire s) = 4%nat /\
  map (fun f => (ftype f, lenN (fdata f))) (on 1 (receive Cbit [takeN (wire_bytes (wire s)) 5; takeN (dropN (wire_bytes (wire s)) 5) 100;
                                     dropN (wire_bytes (wire s)) 105])) = [(FT_PAYLOAD, 150)].
Proof. exact end_to_end_example. Qed.
Print Assumptions C01_example.

(* APPLICATION TO APPLICATION.  For EVERY history of two connected endpoints — application calls, future callbacks,
   publisher signals and close sweeps on either side, frames delivered at any later moment, frames of different streams
   overtaking each other — each side s and each stream k: the payloads the application at s is given from stream k
   (request handler arguments, subscriber elements, awaitable results) are, in order and without repetition, payloads of
   frames its peer queued on stream k.  Nothing fabricated, duplicated, reordered within the stream, altered, or taken
   from another stream; sections that are not deliveries hand the application no payload at all. *)
Theorem C01_network_delivery : forall ls s k,
  let tr := snd (net_run net_init ls) in
  subseq (got tr s k) (pmap carried (on_stream k (nwire tr (other s)))).
Proof.
  intros ls s k. apply (seen_on_wire _ carried); [reflexivity|reflexivity|exact obj_step_payloads|exact call_payloads|reflexivity].
Qed.
Print Assumptions C01_network_delivery.

(* ... and what the peer queued on stream k is what was dispatched here followed by what is still under way: a frame
   leaves the link only by being dispatched *)
Theorem C01_network_in_flight : forall ls s k,
  let r := net_run net_init ls in
  on_stream k (nwire (snd r) (other s)) = on_stream k (delivered (snd r) s) ++ on_stream k (inbox (fst r) s).
Proof. intros ls s k. exact (run_in_flight ls s k). Qed.
Print Assumptions C01_network_in_flight.

(* emission: the payload-carrying frames one application call / callback / publisher signal queues carry exactly the
   payload handed over in that section (at most one frame); reactions to received frames carry none *)
Theorem C01_network_emission : forall u e l, is_recv l = false ->
  pmap pcarried (sent_frames (snd (ep_step u e l))) = [] \/
  exists p, label_payload l = Some p /\ pmap pcarried (sent_frames (snd (ep_step u e l))) = [p].
Proof.
  intros u e l Hl. destruct (local_step_effs u e l) as [->|[(oid & o & _ & _ & ->)|Hs]];
    [left; reflexivity|exact (obj_step_emission oid o (OnLocal l))|].
  destruct l; try discriminate; cbn [ep_step]; try (left; exact (f_equal (pmap pcarried) (close_sends_nothing u e)));
    destruct (alloc e) as [[sid|] e1]; cbn; first [left; reflexivity|right; eexists; split; reflexivity].
Qed.
Print Assumptions C01_network_emission.

Theorem C01_network_reactions_carry_nothing : forall e f o u,
  pmap pcarried (sent_frames (snd (recv_dispatch e f o u))) = [].
Proof.
  intros e f o u. pose proof (recv_dispatch_enqs e f o u) as H. unfold enqs in H. unfold sent_frames.
  induction H as [|g l Hg _ IH]; [reflexivity|]. cbn [pmap]. rewrite (reaction_no_payload f g Hg). exact IH.
Qed.
Print Assumptions C01_network_reactions_carry_nothing.

(* one dispatched frame hands the application nothing or exactly the payload it carries ... *)
Theorem C01_dispatch_intact : forall e f o u,
  app_payloads (snd (recv_dispatch e f o u)) = [] \/
  exists p, carried f = Some p /\ app_payloads (snd (recv_dispatch e f o u)) = [p].
Proof. exact dispatch_intact. Qed.
Print Assumptions C01_dispatch_intact.

(* ... every signal it causes goes to the object registered for that frame's stream (or the responder it creates) ... *)
Theorem C01_dispatch_right_object : forall e f o u, EndpointProofs.Inv e ->
  Forall (fun x => match x with
                   | XFut i _ _ _ | XCb i _ | XPub i _ | XAppFutCancel i =>
                       tget (table e) (fsid f) = Some i \/ (tget (table e) (fsid f) = None /\ i = length (objs e))
                   | _ => True end) (snd (recv_dispatch e f o u)).
Proof.
  intros e f o u _. eapply Forall_impl; [|apply dispatch_addr]. intros x Hx. destruct x; try exact I; apply Hx; reflexivity.
Qed.
Print Assumptions C01_dispatch_right_object.

(* ... and nothing is lost at dispatch: an element or response for a stream whose local party is still listening (pending
   awaitable; subscriber set and, for a channel, receive direction open) is handed to exactly that object, and a request
   on a free id reaches the handler with its payload whether the handler then raises or not *)
Theorem C01_element_delivered : forall e sid oid ob ign fo co md d oc u,
  sid <> 0 -> tget (table e) sid = Some oid -> nth_error (objs e) oid = Some ob -> receptive ob = true ->
  let effs := snd (recv_dispatch e (FPayload sid ign fo co true md d) oc u) in
  app_payloads effs = [(md, d)] /\ Forall (for_object oid) effs.
Proof. exact element_delivered. Qed.
Print Assumptions C01_element_delivered.

Theorem C01_request_delivered : forall e f o u,
  is_request_type f = true -> fsid f <> 0 -> tget (table e) (fsid f) = None ->
  exists p, carried f = Some p /\ app_payloads (snd (recv_dispatch e f o u)) = [p].
Proof. intros e f o u Hq _. exact (request_delivered e f o u Hq). Qed.
Print Assumptions C01_request_delivered.

(* EXACTLY ONCE over whole histories.  For every history of the two endpoints, side s and stream k of the peer's parity:
   if the peer queued exactly one request frame f on stream k (an id is reused only once the id space has wrapped: C13)
   and it has been dispatched, then from the request frames of stream k the application's handler at s was handed the
   request's payload exactly once and nothing else — whatever else happened on this or any other stream (cancels, errors,
   close sweeps on the other side, other requests in flight), and whether or not the handler raised.  par SA = 1 (client,
   odd ids), par SB = 2. *)
Theorem C01_network_request_exactly_once : forall ls s k f,
  let tr := snd (net_run net_init ls) in
  k <> 0 -> k mod 2 <> par s mod 2 ->
  reqk k (nwire tr (other s)) = [f] -> In f (delivered tr s) ->
  exists p, carried f = Some p /\ got_req tr s k = [p].
Proof. intros ls s k f tr _. exact (network_request_exactly_once ls s k f). Qed.
Print Assumptions C01_network_request_exactly_once.

Theorem C01_network_request_example :
  let ls := [NLocal SA (LReqResponse [x01] [x02]); NLocal SB (LReqStream [x03] [x04]);
             NLocal SB (LSubscribe 0%nat true [x03] [x04]);
             NDeliver SB 1 OFuture true; NDeliver SA 2 OPublisher true;
             NLocal SA (LPubNext 1%nat [x05] [x06] false); NLocal SB (LAppResolve 1%nat (ARResult [x07] [x08]));
             NLocal SB (LFutCb 1%nat (ARResult [x07] [x08])); NLocal SA (LPubNext 1%nat [] [x09] true);
             NDeliver SB 2 ONone true; NDeliver SA 1 ONone true; NDeliver SB 2 ONone true] in
  let tr := snd (net_run net_init ls) in
  let f := FRequestResponse 1 false false [x01] [x02] in
  1 <> 0 /\ 1 mod 2 <> par SB mod 2 /\ reqk 1 (nwire tr (other SB)) = [f] /\ In f (delivered tr SB) /\
  got_req tr SB 1 = [([x01], [x02])].
Proof. vm_compute. repeat split; try discriminate. left. reflexivity. Qed.
Print Assumptions C01_network_request_example.

(* EXACTLY ONCE for every payload of a stream, over whole histories.  The vocabulary first (definitions in
   proofs/NetworkExact.v, restated here so that the theorem can be read on its own):
   - s "hears" a frame: a request finds its id free at s; an element / response finds the object registered for its
     stream still expecting one (a pending awaitable, a subscribed stream requester, a channel side whose receive
     direction is open);
   - s is "listening" on stream k over a history: each time a frame of k carrying a payload with content is dispatched
     at s, s hears it;
   - filter nonempty keeps the payloads with content (an empty payload is no element on the wire: model/Network.v
     on_wire). *)
Theorem C01_hears_def : forall e f, hears e f <->
  match f with
  | FRequestResponse _ _ _ _ _ | FRequestFnf _ _ _ _ _ | FRequestStream _ _ _ _ _ _ | FRequestChannel _ _ _ _ _ _ _ =>
      tget (table e) (fsid f) = None
  | FPayload _ _ _ _ _ _ _ =>
      exists oid ob, tget (table e) (fsid f) = Some oid /\ nth_error (objs e) oid = Some ob /\ receptive ob = true
  | _ => False
  end.
Proof. intros e f. unfold hears. reflexivity. Qed.
Print Assumptions C01_hears_def.

Theorem C01_listening_def : forall n l r s k, listening n (l :: r) s k <->
  match l with
  | NDeliver s' k' _ _ =>
      if side_eqb s' s && (k' =? k) then
        match pop (inbox n s) k with
        | Some (f, _) => match carried f with
                         | Some p => nonempty p = true -> hears (ep_of n s) f
                         | None => True
                         end
        | None => True
        end
      else True
  | NLocal _ _ => True
  end /\ listening (fst (net_step n l)) r s k.
Proof. intros n l r s k. cbn [listening]. unfold listens_at. reflexivity. Qed.
Print Assumptions C01_listening_def.

(* For EVERY history of the two endpoints from connection start, each side s and each stream k other than 0: if s was
   listening on k throughout and nothing of stream k is still under way to s, the payloads with content the application
   at s was given from k — handler arguments, subscriber elements, awaitable results — are exactly the payloads with
   content its peer queued on k: none lost, none twice, none altered, in the order queued.  Streams may overtake each
   other, the other side may cancel, fail, close or open further streams at any moment. *)
Theorem C01_network_exactly_once : forall ls s k, k <> 0 -> listening net_init ls s k ->
  let r := net_run net_init ls in
  on_stream k (inbox (fst r) s) = [] ->
  filter nonempty (got (snd r) s k) = filter nonempty (pmap carried (on_stream k (nwire (snd r) (other s)))).
Proof. exact network_exactly_once. Qed.
Print Assumptions C01_network_exactly_once.

(* non-vacuity: the history below (a request-response one way, a request-stream with two elements the other way,
   deliveries interleaved) is listening on every stream it uses and drains both links *)
Theorem C01_network_exactly_once_example :
  let ls := [NLocal SA (LReqResponse [x01] [x02]); NLocal SB (LReqStream [x03] [x04]);
             NLocal SB (LSubscribe 0%nat true [x03] [x04]);
             NDeliver SB 1 OFuture true; NDeliver SA 2 OPublisher true;
             NLocal SA (LPubNext 1%nat [x05] [x06] false); NLocal SB (LAppResolve 1%nat (ARResult [x07] [x08]));
             NLocal SB (LFutCb 1%nat (ARResult [x07] [x08])); NLocal SA (LPubNext 1%nat [] [x09] true);
             NDeliver SB 2 ONone true; NDeliver SA 1 ONone true; NDeliver SB 2 ONone true] in
  (listening net_init ls SB 1 /\ listening net_init ls SA 1 /\ listening net_init ls SB 2 /\ listening net_init ls SA 2) /\
  inbox (fst (net_run net_init ls)) SA = [] /\ inbox (fst (net_run net_init ls)) SB = [] /\
  filter nonempty (got (snd (net_run net_init ls)) SB 2) = [([x05], [x06]); ([], [x09])].
Proof.
  cbn zeta. split; [|vm_compute; repeat split].
  refine (conj _ (conj _ (conj _ _))); apply listeningb_sound; vm_compute; reflexivity.
Qed.
Print Assumptions C01_network_exactly_once_example.

(* non-vacuity: request-response from A, a stream from B with two elements overtaking the response on the link *)
Theorem C01_network_example :
  let ls := [NLocal SA (LReqResponse [x01] [x02]); NLocal SB (LReqStream [x03] [x04]);
             NLocal SB (LSubscribe 0%nat true [x03] [x04]);
             NDeliver SB 1 OFuture true; NDeliver SA 2 OPublisher true;
             NLocal SA (LPubNext 1%nat [x05] [x06] false); NLocal SB (LAppResolve 1%nat (ARResult [x07] [x08]));
             NLocal SB (LFutCb 1%nat (ARResult [x07] [x08])); NLocal SA (LPubNext 1%nat [] [x09] true);
             NDeliver SB 2 ONone true; NDeliver SA 1 ONone true; NDeliver SB 2 ONone true] in
  let tr := snd (net_run net_init ls) in
  got tr SB 1 = [([x01], [x02])] /\ got tr SA 2 = [([x03], [x04])] /\
  got tr SB 2 = [([x05], [x06]); ([], [x09])] /\ got tr SA 1 = [([x07], [x08])] /\
  inbox (fst (net_run net_init ls)) SA = [] /\ inbox (fst (net_run net_init ls)) SB = [].
Proof. vm_compute. repeat split. Qed.
Print Assumptions C01_network_example.
