(* C05 — Per-stream wire order and fragment contiguity under multiplexing.
   Statements, each proved here from the lemmas of proofs/SendQueueProofs.v; model in model/SendQueue.v (RSocketBase.send_frame,
   send_priority_frame, _requeue_partially_sent, _get_next_frame_to_send) and model/Fragmenter.v (the receiver's cache). *)
From Coq Require Import NArith List.
From RSV Require Import lib.Bytes model.Frame model.Fragmenter model.SendQueue proofs.FragmenterProofs proofs.SendQueueProofs.
Import ListNotations.
Open Scope N_scope.

(* For EVERY history of send_frame calls and sender steps (any frames on any streams, queued at any moment
   relative to the sender's progress), every fragment size >= 64 or none, both framings, and every stream k:
   what has been written on k, followed by what is still queued for k, is exactly the concatenation of the
   fragment lists of the frames queued for k, frame after frame in queue order.  Hence: queue order is wire
   order per stream, fragments of one frame are contiguous within their stream, nothing is lost or duplicated. *)
Theorem C05_per_stream : forall size lenreq, size_ok size -> forall ls k, no_prio ls ->
  let s := qrun size lenreq ls in
  on k (wire s) ++ pending (q s) k = concat (map (emissions size lenreq) (on k (enqueued ls))).
Proof. intros size lenreq Hs ls k Hn. apply per_stream_off, no_prio_In, Hn. exact Hs. Qed.
Print Assumptions C05_per_stream.

(* The same with send_priority_frame calls (SETUP, on stream 0) anywhere in the history: a priority frame goes in front of
   everything queued, and changes nothing for any stream it is not on.  So the per-stream statement holds for EVERY
   history — requests made while the client connects or reconnects included — and every stream k no priority frame is
   queued on. *)
Theorem C05_per_stream_with_priority : forall size lenreq, size_ok size -> forall ls k,
  Forall (fun l => match l with QPrio f => fsid f <> k | _ => True end) ls ->
  let s := qrun size lenreq ls in
  on k (wire s) ++ pending (q s) k = concat (map (emissions size lenreq) (on k (enqueued ls))).
Proof. intros size lenreq Hs ls k Hn. apply per_stream_off, prio_off_In, Hn. exact Hs. Qed.
Print Assumptions C05_per_stream_with_priority.

(* one sender step writes the head of its stream's pending fragments and leaves every other stream untouched *)
Theorem C05_step : forall qq x q', Q qq -> send_step qq = Some (x, q') ->
  Q q' /\ pending qq (fsid x) = x :: pending q' (fsid x) /\ forall k, k <> fsid x -> pending q' k = pending qq k.
Proof. exact send_step_spec. Qed.
Print Assumptions C05_step.

(* the priority frame (SETUP) is put ahead of everything already queued *)
Theorem C05_priority : forall size lenreq qq f k,
  pending (enq_priority size lenreq qq f) k = (if fsid f =? k then emissions size lenreq f else []) ++ pending qq k.
Proof. intros. apply pending_cons. Qed.
Print Assumptions C05_priority.

(* receiver: appending a frame reads and writes only its own stream's reassembly entry ... *)
Theorem C05_cache_local : forall c f k, k <> fsid f -> cache_get (fst (cache_append c f)) k = cache_get c k.
Proof. exact cache_append_local. Qed.
Print Assumptions C05_cache_local.

(* ... so for ANY interleaving of streams the answers given to the frames of stream k are exactly those of
   feeding stream k's frames alone: concurrently sent fragmented frames are never merged across streams *)
Theorem C05_interleaving_irrelevant : forall k fs c1 c2, cache_get c1 k = cache_get c2 k ->
  answers_on k c1 fs = snd (cache_feed c2 (on k fs)).
Proof.
  intro k. induction fs as [|f r IH]; intros c1 c2 H; [reflexivity|].
  cbn [answers_on on filter]. destruct (N.eqb_spec (fsid f) k) as [E|E].
  - subst k. destruct (cache_append_determined c1 c2 f H) as [Ha Hg].
    fold (on (fsid f) r). rewrite cache_feed_cons.
    destruct (cache_append c1 f) as [c1' a1]. destruct (cache_append c2 f) as [c2' a2]. cbn [fst snd] in *. subst a2.
    rewrite (IH c1' c2' Hg). destruct (cache_feed c2' (on (fsid f) r)). reflexivity.
  - fold (on k r). pose proof (cache_append_local c1 f k (fun X => E (eq_sym X))) as Hl.
    destruct (cache_append c1 f) as [c1' a1]. cbn [fst] in Hl. apply IH. congruence.
Qed.
Print Assumptions C05_interleaving_irrelevant.

(* the defect repaired by fix fbd3cfd (F4): rotating the partially sent frame to the very back lets a later
   frame of the SAME stream (here the completion) go out between its fragments *)
Theorem C05_rotate_back_refuted :
  map (fun g => (ffollows g, lenN (fdata g))) (wire f4_run) = [(true, 58); (false, 0); (false, 42)].
Proof. vm_compute. reflexivity. Qed.
Print Assumptions C05_rotate_back_refuted.
