(* C17 — Reconnect yields a fresh, working connection.
   Statements, each proved here from the lemmas of proofs/ClientProofs.v; model in model/Client.v (settled-step model of
   RSocketClient.connect / _reconnect_listener / _close / keepalive timeout and RSocketBase._on_connection_closed). *)
From Coq Require Import NArith List.
From RSV Require Import lib.Iter model.Client proofs.ClientProofs.
Import ListNotations.
Open Scope N_scope.

(* A reconnect, from ANY state of a client that has connected once (healthy, dead after a keepalive timeout,
   closed after EOF / a transport error, with or without pending requests), takes the next transport,
   writes a fresh SETUP on it, is alive, restarts stream ids, closes the old transport, and fails every
   request that was pending exactly once; the application's close notification is delivered once if a
   connection was still up *)
Theorem C17_reconnect_fresh : forall s, conn s <> 0%nat ->
  let s' := do_reconnect true s in
  conn s' = S (conn s) /\ connected s' = true /\ alive s' = true /\ wire s' = [WSetup] /\ pending s' = [] /\
  last_id s' = 0 /\ closed s' = closed s ++ [(conn s - 1)%nat] /\
  failed s' = failed s ++ map (fun sid => ((conn s - 1)%nat, sid)) (pending s) /\
  on_close_calls s' = (if connected s then S (on_close_calls s) else on_close_calls s).
Proof. intros s Hc. unfold do_reconnect. destruct (connected s); cbn; repeat split; reflexivity. Qed.
Print Assumptions C17_reconnect_fresh.

(* requests issued afterwards are served: the first gets stream id 1 and goes out right after SETUP *)
Theorem C17_served_after_reconnect : forall p s, conn s <> 0%nat ->
  let s' := cstep true p (do_reconnect true s) AReq in wire s' = [WSetup; WReq 1] /\ pending s' = [1].
Proof. intros p s Hc. unfold do_reconnect. destruct (connected s); cbn; split; reflexivity. Qed.
Print Assumptions C17_served_after_reconnect.

(* each cause named in the property — connection loss (EOF or transport error), keepalive timeout,
   explicit reconnect while healthy — leads to exactly that reconnect when the handler asks for it *)
Theorem C17_causes : forall s, connected s = true -> conn s <> 0%nat ->
  cstep true {| reconnect_on_close := true; reconnect_on_timeout := true |} s ALoss = do_reconnect true (connection_closed s) /\
  (alive s = true ->
   exists s1, cstep true {| reconnect_on_close := true; reconnect_on_timeout := true |} s AKaTimeout = do_reconnect true s1 /\
              alive s1 = false /\ pending s1 = pending s /\ conn s1 = conn s /\ connected s1 = true) /\
  cstep true {| reconnect_on_close := true; reconnect_on_timeout := true |} s AReconnect = do_reconnect true s.
Proof.
  intros s Hco Hc. cbn [cstep reconnect_on_close reconnect_on_timeout]. rewrite Hco. split; [reflexivity|]. split.
  - intros Ha. rewrite Ha. cbn [andb]. eexists. split; [reflexivity|]. cbn. repeat split.
  - destruct (PeanoNat.Nat.eqb_spec (conn s) 0); [congruence|reflexivity].
Qed.
Print Assumptions C17_causes.

(* for every sequence of actions and every handler policy (any number of consecutive reconnects): on every
   transport the client ever used, SETUP is the first frame and is written once *)
Theorem C17_setup_on_every_connection : forall p acts,
  let s := crun_client true p acts in
  wire_ok (wire s) /\ Forall (fun c => wire_ok (snd c)) (history s).
Proof.
  intros p acts. cbv zeta. assert (Inv (crun_client true p acts)) as (A & B & _); [|split; assumption].
  apply (fold_left_inv _ Inv (inv_step p)). split; [left; reflexivity|]. split; [constructor|discriminate].
Qed.
Print Assumptions C17_setup_on_every_connection.

(* the defect repaired by fix ddd04f9 (F8): without resetting the liveness state in connect(), the connection
   obtained after a keepalive timeout writes nothing, not even SETUP *)
Theorem C17_no_liveness_reset_refuted :
  wire (crun_client false {| reconnect_on_close := false; reconnect_on_timeout := true |} [AConnect; AKaTimeout; AReq]) = [].
Proof. reflexivity. Qed.
Print Assumptions C17_no_liveness_reset_refuted.
