(* C12 — Hostile input and failing application code are contained.
   Byte level: model/Parser.v (frame_parser.py + frame.py parse_or_ignore); frame level: model/Endpoint.v (rsocket_base.py
   _handle_next_frame, handlers/*.py). *)
From Coq Require Import NArith List.
From RSV Require Import gen.GenConst lib.Bytes lib.Iter model.Frame model.Parser model.Fragmenter model.Endpoint
     proofs.ParserProofs proofs.EndpointProofs.
Import ListNotations.
Open Scope N_scope.

(* for ARBITRARY bytes in the buffer (any decoder verdicts: ok, ignored, invalid), the byte-stream loop terminates within
   as many iterations as there are bytes and leaves no complete frame behind; a body that does not decode yields one
   invalid marker and does not disturb the frames after it (C04_exact); chunking is irrelevant (C04_chunking) *)
Theorem C12_bytes_terminate : forall decode fuel buf, (length buf <= fuel)%nat ->
  drain decode fuel buf = drain_all decode buf /\ split_frame (snd (drain_all decode buf)) = None.
Proof. exact drain_terminates. Qed.
Print Assumptions C12_bytes_terminate.

Theorem C12_bad_body_skipped : forall decode bodies tail, Forall (fun b => lenN b < 2 ^ 24) bodies ->
  drain_all decode (concat (map delimit bodies) ++ tail) =
    let (o, r) := drain_all decode tail in (concat (map (fun b => items_of (decode b)) bodies) ++ o, r).
Proof. exact drain_delimited. Qed.
Print Assumptions C12_bad_body_skipped.

(* the empty message on a message transport (the hang repaired by fix 2733ad1) is consumed and yields nothing *)
Theorem C12_empty_message : forall decode fuel, (1 <= fuel)%nat -> msg_feed decode true fuel [] [] = Some ([], []).
Proof. exact msg_empty_guarded. Qed.
Print Assumptions C12_empty_message.

(* ANY frame (valid, protocol-violating, for unknown or finished streams), ANY behaviour of the application
   handler (returns, raises), ANY state: the table entry and the reassembly entry of every OTHER stream are
   untouched, and everything queued for sending in reaction is on the offending frame's own stream. *)
Theorem C12_contained e f o u k : Inv e -> k <> fsid f ->
  let '(e', effs) := recv_frame e f o u in
  tget (table e') k = tget (table e) k /\ cache_get (cachek e') k = cache_get (cachek e) k /\ enq_on (fsid f) effs.
Proof. intros I Hk. apply recv_frame_local; [apply inv_WF; exact I|apply I|exact Hk]. Qed.
Print Assumptions C12_contained.

(* the structural invariant the above relies on holds after EVERY history of atomic sections (received frames of
   any kind, application calls in any order, raising handlers, close) *)
Theorem C12_invariant first ls : Inv (reach first ls).
Proof.
  apply (Iter.fold_left_inv step_state Inv); [intros e [l u]; apply inv_step|apply inv_init].
Qed.
Print Assumptions C12_invariant.

(* ... so a request arriving afterwards on a free stream id is served exactly as on a fresh connection *)
Theorem C12_still_served e sid ign md d :
  tget (table e) sid = None -> cache_get (cachek e) sid = None -> sid <> 0 ->
  recv_frame e (FRequestResponse sid ign false md d) OFuture true =
    (register_obj e sid (mk_obj KRRResp sid), [XHandler HResponse md d]).
Proof.
  intros Ht Hc Hs. rewrite recv_frame_whole by (reflexivity || exact Hc). unfold recv_dispatch. cbn [fsid default_outcome].
  rewrite Ht, (proj2 (N.eqb_neq sid CONNECTION_STREAM_ID) Hs). reflexivity.
Qed.
Print Assumptions C12_still_served.

(* a handler that raises, for any request type on any stream: the answer is one ERROR frame on that stream and the
   state is unchanged *)
Theorem C12_raising_handler e sid ign md d :
  tget (table e) sid = None -> cache_get (cachek e) sid = None ->
  recv_frame e (FRequestResponse sid ign false md d) ORaise true =
    (e, [XHandler HResponse md d; XEnq (f_error sid EC_APPLICATION_ERROR [])]).
Proof.
  intros Ht Hc. rewrite recv_frame_whole by (reflexivity || exact Hc). unfold recv_dispatch. cbn [fsid]. rewrite Ht.
  destruct (sid =? CONNECTION_STREAM_ID); reflexivity.
Qed.
Print Assumptions C12_raising_handler.

(* CANCEL / REQUEST_N / ERROR / KEEPALIVE-like frames for a stream that is unknown or already finished are dropped:
   no state change, nothing sent *)
Theorem C12_unknown_stream_dropped e f o u : is_fragmentable f = false -> is_request_type f = false ->
  fsid f <> CONNECTION_STREAM_ID -> tget (table e) (fsid f) = None -> recv_frame e f o u = (e, []).
Proof. exact (unknown_stream_dropped e f o u). Qed.
Print Assumptions C12_unknown_stream_dropped.
