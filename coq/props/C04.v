(* C04 — Decoded frames are independent of how the byte stream is chunked.
   Statements, each proved here from the lemmas of proofs/ParserProofs.v; model in model/Parser.v (frame_parser.py, the
   read loop of transports/tcp.py, the message transports' use of receive_data(data, 0)).
   Every theorem but C04_valid_frames holds for ANY total frame decoder (the Section variable of the model), in
   particular Frame.decode under either back end. *)
From Coq Require Import NArith List Lia Init.Byte.
From RSV Require Import lib.Bytes model.Frame model.Parser proofs.ParserProofs.
Import ListNotations.
Open Scope N_scope.

(* The decoded items AND the residual buffer depend only on the concatenation of the reads:
   any two chunkings of the same bytes (single bytes, cuts inside the length prefix, empty reads) agree. *)
Theorem C04_chunking : forall decode cs cs',
  concat cs = concat cs' -> feed_all decode [] cs = feed_all decode [] cs'.
Proof. intros decode cs cs' H. rewrite !feed_all_is_drain by reflexivity. cbn [app]. rewrite H. reflexivity. Qed.
Print Assumptions C04_chunking.

(* ... and equal what one pass over the whole stream produces *)
Theorem C04_feed_is_drain : forall decode cs, feed_all decode [] cs = drain_all decode (concat cs).
Proof. exact feed_all_spec. Qed.
Print Assumptions C04_feed_is_drain.

(* Exactness: a stream of correctly delimited bodies followed by any tail yields, in order, exactly
   what each body decodes to on its own -- nothing for an ignored frame, one invalid marker for an
   undecodable one -- followed by what the tail yields: none lost, none duplicated, a bad body does
   not disturb the frames after it. *)
Theorem C04_exact : forall decode bodies tail, Forall (fun b => lenN b < 2 ^ 24) bodies ->
  drain_all decode (concat (map delimit bodies) ++ tail) =
    let (o, r) := drain_all decode tail in (concat (map (fun b => items_of (decode b)) bodies) ++ o, r).
Proof. exact drain_delimited. Qed.
Print Assumptions C04_exact.

(* with the real decoder: valid frame values come out as themselves (normalised) *)
Theorem C04_valid_frames : forall bk fs, Forall (fun f => wf f = true /\ lenN (encode f) < 2 ^ 24) fs ->
  drain_all (decode bk) (concat (map (fun f => delimit (encode f)) fs)) = (map (fun f => IFrame (norm f)) fs, []).
Proof. exact valid_frames. Qed.
Print Assumptions C04_valid_frames.

(* what was decoded from a prefix of the stream is a prefix of what the whole stream decodes to
   (a connection cut at any byte offset has delivered a prefix of the frames) *)
Theorem C04_prefix : forall decode a b, exists o2,
  fst (drain_all decode (a ++ b)) = fst (drain_all decode a) ++ o2.
Proof. exact prefix_outputs. Qed.
Print Assumptions C04_prefix.

(* termination of the byte-stream loop: fuel = number of buffered bytes always suffices, and the
   residual buffer never contains a complete frame *)
Theorem C04_terminates : forall decode fuel buf, (length buf <= fuel)%nat ->
  drain decode fuel buf = drain_all decode buf /\ split_frame (snd (drain_all decode buf)) = None.
Proof. exact drain_terminates. Qed.
Print Assumptions C04_terminates.

(* message framing: each non-empty message yields exactly the frame it contains; an empty message
   yields nothing and terminates *)
Theorem C04_message : forall decode data, data <> [] -> forall fuel, (2 <= fuel)%nat ->
  msg_feed decode true fuel [] data = Some (items_of (decode data), []).
Proof.
  intros decode data Hne fuel Hf. unfold msg_feed. cbn [app].
  destruct fuel as [|[|k]]; try lia. cbn [msg_loop].
  assert (0 < lenN data) as Hpos by (destruct data; [congruence|rewrite lenN_cons; lia]).
  destruct (N.eqb_spec (lenN data) 0) as [E|_]; [lia|]. cbn [andb].
  destruct (N.ltb_spec (lenN data) (lenN data)) as [|_]; [lia|].
  rewrite (dropN_all data (lenN data)) by lia. rewrite (takeN_all data (lenN data)) by lia.
  change (lenN [] =? 0) with true. cbn [andb]. rewrite app_nil_r. reflexivity.
Qed.
Print Assumptions C04_message.
Theorem C04_empty_message : forall decode fuel, (1 <= fuel)%nat -> msg_feed decode true fuel [] [] = Some ([], []).
Proof. exact msg_empty_guarded. Qed.
Print Assumptions C04_empty_message.
(* F3, repaired in the repository: without the `total > 0` conjunct an empty message never terminates *)
Theorem C04_empty_message_unguarded_diverges : forall decode fuel, msg_feed decode false fuel [] [] = None.
Proof.
  intro decode. unfold msg_feed. cbn [app]. induction fuel as [|k IH]; [reflexivity|].
  cbn [msg_loop andb]. change (lenN [] <? lenN []) with false. cbv iota.
  change (dropN [] (lenN [])) with (@nil byte). rewrite IH. reflexivity.
Qed.
Print Assumptions C04_empty_message_unguarded_diverges.
