(* C07 — Every interaction terminates at most once at the API.
   Model: model/Endpoint.v (handlers/*.py, rsocket_base.py dispatch, stream_control.py stop_all_streams).
   A history is ANY list of atomic sections: received frames (legal or not), application calls in any order,
   done-callbacks, publisher signals, and the close sweep at any position. *)
From Coq Require Import NArith List Lia Init.Byte.
From RSV Require Import model.Frame model.Endpoint proofs.EndpointProofs proofs.EndpointSignals proofs.EndpointSubscribe proofs.EndpointSweep.
Import ListNotations.
Open Scope N_scope.

(* The awaitable of request_response: over EVERY history, for every requester object, the library sets a result or an
   exception at most once ... *)
Theorem C07_awaitable_at_most_once first ls oid :
  (futs oid (concat (snd (ep_run (ep_init first) ls))) <= 1)%nat.
Proof.
  pose proof (run_futs ls (ep_init first) oid (inv_init first)) as H. pose proof (pend_le1 (ep_init first) oid). lia.
Qed.
Print Assumptions C07_awaitable_at_most_once.

(* ... and never once it is resolved or the caller has cancelled it (no InvalidStateError, no second outcome) *)
Theorem C07_no_resolution_unless_pending ls e oid o : Inv e -> nth_error (objs e) oid = Some o -> o_fut o <> FPending ->
  futs oid (concat (snd (ep_run e ls))) = 0%nat.
Proof. exact (no_resolution_unless_pending ls e oid o). Qed.
Print Assumptions C07_no_resolution_unless_pending.

(* one atomic section: a resolution happens only while the awaitable is pending, and ends that *)
Theorem C07_step_awaitable u e l oid : Inv e ->
  (futs oid (snd (ep_step u e l)) + pend (fst (ep_step u e l)) oid <= pend e oid)%nat.
Proof. exact (step_futs u e l oid). Qed.
Print Assumptions C07_step_awaitable.

(* loss of the connection at ANY point: the sweep fails a pending request exactly once, fails the subscriber of a
   stream once, and tells a channel's subscriber nothing if its receiving direction had already completed *)
Theorem C07_close_by_kind e sid oid ob : nth_error (objs e) oid = Some ob -> o_sid ob = sid ->
  snd (close_one e sid oid) =
  match o_kind ob with
  | KRRReq => match o_fut ob with FPending => [XFut oid false [] []] | _ => [] end
  | KRRResp => match o_fut ob with FPending => [XAppFutCancel oid] | _ => [] end
  | KRSReq => if o_has_sub ob then [XCb oid SError] else []
  | KRSResp => [XPub oid PCancelOp]
  | KChanReq => (if o_recv ob then [] else if o_has_sub ob then [XCb oid SError] else [])
                ++ (if o_has_pub ob then [XPub oid PCancelOp] else [])
  | KChanResp => if o_has_pub ob then [XPub oid PCancelOp] else []
  end.
Proof. intros Ho _. rewrite close_one_effects, Ho. reflexivity. Qed.
Print Assumptions C07_close_by_kind.

(* Subscribers.  One atomic section delivers at most one element/terminal signal to a subscriber, none once its
   receiving side is closed (stream gone, or a channel's receive direction marked complete: by the peer's terminal frame,
   by the local cancel, or because no subscriber was given), and a terminal signal closes it — for EVERY label *)
Theorem C07_step_signals u e l oid : Inv e ->
  (length (dsigs oid (snd (ep_step u e l))) <= opn e oid)%nat /\
  (tcount oid (snd (ep_step u e l)) + opn (fst (ep_step u e l)) oid <= opn e oid)%nat.
Proof. exact (step_sigs u e l oid). Qed.
Print Assumptions C07_step_signals.

(* hence over EVERY history — any peer behaviour, any order of local actions, the connection lost anywhere: at most
   one terminal signal (completion, error, or an element flagged complete) and nothing after it *)
Theorem C07_terminal_at_most_once first ls oid :
  ok_sigs (dsigs oid (concat (snd (ep_run (ep_init first) ls)))).
Proof. apply run_sigs_ok, inv_init. Qed.
Print Assumptions C07_terminal_at_most_once.

(* ... from any reachable state *)
Theorem C07_terminal_at_most_once_from : forall ls e oid, Inv e -> ok_sigs (dsigs oid (concat (snd (ep_run e ls)))).
Proof. exact run_sigs_ok. Qed.
Print Assumptions C07_terminal_at_most_once_from.

(* on_subscribe comes first: over EVERY history the first signal a subscriber is ever given is on_subscribe *)
Theorem C07_on_subscribe_first : forall first ls oid,
  match sigs oid (concat (snd (ep_run (ep_init first) ls))) with [] => True | s :: _ => s = SSubscribe end.
Proof. intros first ls oid. apply run_first; [apply inv_init|destruct oid; reflexivity]. Qed.
Print Assumptions C07_on_subscribe_first.

(* the whole close sweep, from every reachable state: exactly the per-kind effects of every stream registered at that
   moment, judged by its state at that moment, oldest registration first; nothing else *)
Theorem C07_close_sweep_complete : forall u e, Inv e -> snd (ep_step u e LClose) = sweep_of e (rev (table e)).
Proof. exact close_sweep_complete. Qed.
Print Assumptions C07_close_sweep_complete.

(* an instance: element, completion, then loss of the connection; close adds nothing *)
Theorem C07_example :
  let ls := [(LReqChannel [] [x01] true, true); (LSubscribe 0 true [] [x01], true);
             (LRecv (FPayload 1 false false false true [] [x02]) ONone, true);
             (LRecv (FPayload 1 false false true false [] []) ONone, true); (LClose, true)] in
  dsigs 0 (concat (snd (ep_run (ep_init 1) ls))) = [SNext [] [x02] false; SComplete].
Proof. exact sigs_example2. Qed.
Print Assumptions C07_example.
