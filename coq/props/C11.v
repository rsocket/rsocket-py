(* C11 — Connection loss or close fails everything pending, exactly once.
   Model: model/Endpoint.v (LClose = stop_all_streams as run by _on_connection_closed).  The byte level (a cut at any
   offset delivers a prefix of the frames and leaves at most an incomplete frame behind) is C04_prefix / C04_terminates.
   What the tasks do (on_close once, no sends afterwards, keepalive stopped) is runtime behaviour checked on the real
   endpoint. *)
From Coq Require Import List.
From RSV Require Import model.Parser model.Endpoint proofs.ParserProofs proofs.EndpointProofs proofs.EndpointSignals proofs.EndpointSweep.
Import ListNotations.
Open Scope N_scope.

(* the sweep visits every registered stream (oldest first) ... *)
Theorem C11_sweep_unfolds e sid oid r :
  close_all e ((sid, oid) :: r) =
  (let (e1, x1) := close_one e sid oid in let (e2, x2) := close_all e1 r in (e2, x1 ++ x2)).
Proof. reflexivity. Qed.
Print Assumptions C11_sweep_unfolds.

(* ... and does to each what its kind requires: a pending request is failed (once), a stream/channel subscriber is
   failed (unless its direction had already completed), handler futures and publishers are cancelled *)
Theorem C11_close_by_kind e sid oid ob : nth_error (objs e) oid = Some ob -> o_sid ob = sid ->
  snd (close_one e sid oid) =
  match o_kind ob with
  | KRRReq => match o_fut ob with FPending => [XFut oid false [] []] | _ => [] end
  | KRRResp => match o_fut ob with FPending => [XAppFutCancel oid] | _ => [] end
  | KRSReq => if o_has_sub ob then [XCb oid SError] else []
  | KRSResp => [XPub oid PCancelOp]
  | KChanReq => (if o_recv ob then [] else if o_has_sub ob then [XCb oid SError] else [])
                ++ (if o_has_pub ob then [XPub oid PCancelOp] else [])
  | KChanResp => if o_has_pub ob then [XPub oid PCancelOp] else []
  end.
Proof. intros Ho _. rewrite close_one_effects, Ho. reflexivity. Qed.
Print Assumptions C11_close_by_kind.

(* THE WHOLE SWEEP, from every reachable state: what the application is told when the connection is lost is exactly,
   for every stream registered at that moment (oldest registration first) and judged by that stream's state at that
   moment, the pending request failed / the open subscriber failed / the handler future or publisher cancelled — each
   once, nothing else, nothing for streams that are not registered *)
Theorem C11_sweep_complete : forall u e, Inv e -> snd (ep_step u e LClose) = sweep_of e (rev (table e)).
Proof. exact close_sweep_complete. Qed.
Print Assumptions C11_sweep_complete.
Theorem C11_sweep_per_object : forall ob oid, close_effects ob oid =
  match o_kind ob with
  | KRRReq => match o_fut ob with FPending => [XFut oid false [] []] | _ => [] end
  | KRRResp => match o_fut ob with FPending => [XAppFutCancel oid] | _ => [] end
  | KRSReq => if o_has_sub ob then [XCb oid SError] else []
  | KRSResp => [XPub oid PCancelOp]
  | KChanReq => (if o_recv ob then [] else if o_has_sub ob then [XCb oid SError] else [])
                ++ (if o_has_pub ob then [XPub oid PCancelOp] else [])
  | KChanResp => if o_has_pub ob then [XPub oid PCancelOp] else []
  end.
Proof. intros. reflexivity. Qed.
Print Assumptions C11_sweep_per_object.

(* sweeping one entry leaves every other object as it was, so each is treated according to its own state *)
Theorem C11_close_other_objects e sid oid j : j <> oid ->
  nth_error (objs (fst (close_one e sid oid))) j = nth_error (objs e) j.
Proof. exact (close_one_other_objs e sid oid j). Qed.
Print Assumptions C11_close_other_objects.

(* afterwards nothing is registered, from every reachable state (so nothing can be delivered or sent for a stream) *)
Theorem C11_close_empties u e : Inv e -> table (fst (ep_step u e LClose)) = [].
Proof. intros _. exact (close_empties u e). Qed.
Print Assumptions C11_close_empties.

(* exactly once: over the whole sweep an awaitable is resolved at most once and a subscriber gets at most one signal,
   and none if it had already been terminated *)
Theorem C11_once_awaitable u e oid : Inv e ->
  (futs oid (snd (ep_step u e LClose)) + pend (fst (ep_step u e LClose)) oid <= pend e oid)%nat.
Proof. exact (step_futs u e LClose oid). Qed.
Print Assumptions C11_once_awaitable.
Theorem C11_once_subscriber u e oid : Inv e ->
  (length (dsigs oid (snd (ep_step u e LClose))) <= opn e oid)%nat /\
  (tcount oid (snd (ep_step u e LClose)) + opn (fst (ep_step u e LClose)) oid <= opn e oid)%nat.
Proof. exact (step_sigs u e LClose oid). Qed.
Print Assumptions C11_once_subscriber.

(* a link cut at ANY byte offset has delivered a prefix of the frames (nothing reordered, nothing invented) *)
Theorem C11_cut_delivers_prefix : forall decode a b, exists o2,
  fst (drain_all decode (a ++ b)) = fst (drain_all decode a) ++ o2.
Proof. exact prefix_outputs. Qed.
Print Assumptions C11_cut_delivers_prefix.
