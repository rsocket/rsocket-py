(* C09 — Cancellation stops the stream at both ends.
   Model: model/Endpoint.v (the endpoint), model/Publisher.v (the library's stream sources). *)
From Coq Require Import NArith List Bool Init.Byte.
From RSV Require Import model.Publisher proofs.PublisherProofs.
From RSV Require Import gen.GenConst model.Frame model.Fragmenter model.Endpoint proofs.EndpointObjects proofs.EndpointProofs proofs.EndpointSignals.
Import ListNotations.
Open Scope N_scope.

(* stream subscription: cancel() sends exactly one CANCEL, drops the stream, and in EVERY continuation (frames still
   in flight, further local calls, loss of the connection) the canceller's subscriber is told nothing more *)
Theorem C09_stream_cancel u e oid o : Inv e -> nth_error (objs e) oid = Some o -> o_kind o = KRSReq ->
  ep_step u e (LCancel oid) = (finish e (o_sid o), [XEnq (f_cancel (o_sid o))]) /\
  forall ls, dsigs oid (concat (snd (ep_run (finish e (o_sid o)) ls))) = [].
Proof.
  intros I Ho Hk. split; [cbn [ep_step]; unfold with_obj; rewrite Ho, Hk; reflexivity|].
  intros ls. apply run_closed_silent; [apply inv_finish; exact I|apply opn_finish_own; assumption].
Qed.
Print Assumptions C09_stream_cancel.

(* elements in flight for the cancelled stream are dropped without a trace *)
Theorem C09_inflight_dropped e sid ign co nx md d o u : gone e sid -> sid <> CONNECTION_STREAM_ID ->
  recv_frame e (FPayload sid ign false co nx md d) o u = (e, []).
Proof.
  intros [Ht Hc] Hs. rewrite recv_frame_whole by (reflexivity || exact Hc). unfold recv_dispatch. cbn [fsid is_request_type].
  rewrite orb_false_r, (proj2 (N.eqb_neq sid CONNECTION_STREAM_ID) Hs), Ht. reflexivity.
Qed.
Print Assumptions C09_inflight_dropped.

(* request-response: after the caller cancels the awaitable the library never resolves it, in any continuation, and the
   done-callback sends exactly one CANCEL (none if the response had already been received) *)
Theorem C09_response_cancel u e oid o : Inv e -> nth_error (objs e) oid = Some o -> o_kind o = KRRReq -> o_fut o = FPending ->
  let e1 := fst (ep_step u e (LFutCancel oid)) in
  (forall ls, futs oid (concat (snd (ep_run e1 ls))) = 0%nat) /\
  (forall r, snd (ep_step u e1 (LFutCb oid r)) = if o_responded o then [] else [XEnq (f_cancel (o_sid o))]).
Proof.
  intros I Ho Hk Hf. cbn [ep_step]. unfold with_obj. rewrite Ho, Hf. cbn [fst].
  assert (nth_error (objs (set_obj e oid (upd_fut o FCancelled))) oid = Some (upd_fut o FCancelled)) as Hn
    by exact (nth_oset_same _ _ _ _ Ho).
  split.
  - intro ls. apply (no_resolution_unless_pending ls _ oid (upd_fut o FCancelled)); [|exact Hn|discriminate].
    exact (inv_commit e oid o (upd_fut o FCancelled) false I Ho eq_refl).
  - intro r. rewrite Hn. cbn [upd_fut o_kind o_fut o_responded o_sid]. rewrite Hk. destruct (o_responded o); reflexivity.
Qed.
Print Assumptions C09_response_cancel.

(* the peer's side: CANCEL cancels the handler's future / the publisher in the same atomic section ... *)
Theorem C09_cancel_reaches_producer e oid o u : o_has_pub o = true \/ is_chan (o_kind o) = false ->
  snd (fst (handler_frame e oid o (FCancel (o_sid o) false) u)) =
  match o_kind o with
  | KRRResp => match o_fut o with FPending => [XAppFutCancel oid] | _ => [] end
  | KRSResp | KChanReq | KChanResp => [XPub oid PCancelOp]
  | _ => []
  end.
Proof.
  intro H. unfold handler_frame. destruct (o_kind o) eqn:Ek; cbn [is_chan] in H; try reflexivity;
    [destruct (o_fut o); reflexivity| |]; (destruct H as [H|H]; [rewrite H; reflexivity|discriminate]).
Qed.
Print Assumptions C09_cancel_reaches_producer.

(* ... and the responder's stream is gone, so nothing more is sent for it *)
Theorem C09_responder_dropped e oid o u : o_kind o = KRRResp ->
  let '(e', effs, raised) := handler_frame e oid o (FCancel (o_sid o) false) u in
  gone e' (o_sid o) /\ raised = false /\ effs = (match o_fut o with FPending => [XAppFutCancel oid] | _ => [] end).
Proof. exact (cancel_rr_responder e oid o u). Qed.
Print Assumptions C09_responder_dropped.

(* production stops: once the library's stream source (StreamFromGenerator, StreamFromAsyncGenerator, both
   BackPressurePublishers; model/Publisher.v, tied to the code by the C06 and C09 correspondences) has been cancelled —
   at ANY moment, also before its feeder task ever ran — under every further schedule of requests and task steps
   nothing is handed to the subscriber and the source is not pulled again *)
Theorem C09_source_cancel_silences : forall ls s, Publisher.cancelled s = true ->
  Publisher.delivered (fold_left pstep ls s) = Publisher.delivered s /\ Publisher.cancelled (fold_left pstep ls s) = true.
Proof. exact cancel_silences. Qed.
Print Assumptions C09_source_cancel_silences.
Theorem C09_source_cancel_stops_production : forall ls s, Publisher.cancelled s = true ->
  Publisher.remaining (fold_left pstep ls s) = Publisher.remaining s /\ Publisher.outq (fold_left pstep ls s) = Publisher.outq s.
Proof. intros ls s Hc. destruct (cancelled_frozen s ls Hc) as (_ & B & C & _). auto. Qed.
Print Assumptions C09_source_cancel_stops_production.
Theorem C09_source_cancel_takes_effect : forall s, Publisher.cancelled (pstep s PCancel) = true.
Proof. reflexivity. Qed.
Print Assumptions C09_source_cancel_takes_effect.

(* isolation: a local cancel, and a CANCEL frame from the peer, touch only their own stream *)
Theorem C09_local_cancel_isolated u e oid o k : nth_error (objs e) oid = Some o -> k <> o_sid o ->
  let e' := fst (ep_step u e (LCancel oid)) in
  tget (table e') k = tget (table e) k /\ cache_get (cachek e') k = cache_get (cachek e) k /\
  (forall j, j <> oid -> nth_error (objs e') j = nth_error (objs e) j).
Proof.
  intros Ho Hk. cbv zeta.
  destruct (trans_off _ _ _ _ k (single_trans _ _ _ _ (local_single u e (LCancel oid) oid o eq_refl Ho)) (not_eq_sym Hk)) as [A B].
  split; [exact A|]. split; [exact B|]. intros j Hj. rewrite (local_step_obj u e (LCancel oid) oid o eq_refl Ho).
  apply commit_nth_other. exact Hj.
Qed.
Print Assumptions C09_local_cancel_isolated.
Theorem C09_peer_cancel_isolated e f o u k : WF e -> CWF (cachek e) -> k <> fsid f ->
  let '(e', effs) := recv_frame e f o u in
  tget (table e') k = tget (table e) k /\ cache_get (cachek e') k = cache_get (cachek e) k /\ enq_on (fsid f) effs.
Proof. exact (recv_frame_local e f o u k). Qed.
Print Assumptions C09_peer_cancel_isolated.

(* a channel whose own sending direction is still open stays registered after cancel() (finding F16, see C10), but its
   receive direction is closed: elements still in flight are dropped (this used to be finding
   KF-C09-channel-cancel-inflight; repaired in the repository) *)
Theorem C09_channel_cancel_inflight_dropped e oid o sid ign fo co nx md d u : is_chan (o_kind o) = true -> o_recv o = true ->
  handler_frame e oid o (FPayload sid ign fo co nx md d) u = (e, [], false).
Proof. intros Hk Hr. unfold handler_frame. destruct (o_kind o); try discriminate Hk; rewrite Hr; reflexivity. Qed.
Print Assumptions C09_channel_cancel_inflight_dropped.
Theorem C09_channel_cancel_example :
  snd (recv_frame (fst (ep_step true f16_ep (LCancel 0))) (FPayload 1 false false false true [] [x07]) ONone true) = [].
Proof. vm_compute. reflexivity. Qed.
Print Assumptions C09_channel_cancel_example.
