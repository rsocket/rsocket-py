(* C02 — Frame codec round-trip, canonical bytes, backend independence.
   Statements, each proved here from the lemmas of proofs/FrameProofs.v; model in model/Frame.v (rsocket/frame.py,
   frame_helpers.py, transports/tcp.py's partial write); constants regenerated in gen/GenConst.v. *)
From Coq Require Import NArith List Lia.
From RSV Require Import gen.GenConst lib.Bytes model.Frame proofs.FrameProofs.
Open Scope N_scope.

(* the regenerated constants have the shapes the codec relies on *)
Theorem C02_constants :
  (MASK_31_BITS = N.ones 31 /\ MASK_63_BITS = N.ones 63 /\ HEADER_LENGTH = 6) /\
  (FLAG_IGNORE_BIT = 512 /\ FLAG_METADATA_BIT = 256 /\ FLAG_FOLLOWS_BIT = 128 /\ FLAG_RESUME_BIT = 128 /\
   FLAG_RESPOND_BIT = 128 /\ FLAG_LEASE_BIT = 64 /\ FLAG_COMPLETE_BIT = 64 /\ FLAG_NEXT_BIT = 32) /\
  forallb (fun t => t <? 64) frame_class_ids = true.
Proof. repeat split; reflexivity. Qed.
Print Assumptions C02_constants.

(* For every frame value of each of the 14 types within the wire format's ranges (wf), under
   either back end, decoding its encoding yields the same fields; the only normalisation is
   that a PAYLOAD with content carries NEXT. Metadata is an arbitrary byte string shorter than
   2^24 (its length field), data an arbitrary byte string of any length. *)
Theorem C02_decode_encode : forall bk f, wf f = true -> decode bk (encode f) = DOk (norm f).
Proof. exact decode_encode. Qed.
Print Assumptions C02_decode_encode.

(* re-encoding the decoded frame reproduces the bytes *)
Theorem C02_reencode : forall bk f g, wf f = true -> decode bk (encode f) = DOk g -> encode g = encode f.
Proof. intros bk f g W E. rewrite decode_encode in E by exact W. injection E as <-. apply encode_norm. Qed.
Print Assumptions C02_reencode.

(* the incrementally written form (3-byte length, prefix, metadata, data) is byte-identical to the
   one-shot length-prefixed encoding, and its length field is the length of the encoding *)
Theorem C02_partial_write : forall f,
  encode_partial f = be 3 (lenN (encode f)) ++ encode f /\ encode_partial f = encode_prefixed f.
Proof. intro f. split; exact (partial_write f). Qed.
Print Assumptions C02_partial_write.

Theorem C02_length_field_exact : forall f, lenN (encode f) < 2 ^ 24 ->
  get_be 3 (encode_partial f) = Some (lenN (encode f), encode f).
Proof. intros f H. rewrite partial_write. apply get_be_app. exact H. Qed.
Print Assumptions C02_length_field_exact.

(* results do not depend on the back end *)
Theorem C02_backend_independent : forall f, wf f = true -> decode Native (encode f) = decode Cbit (encode f).
Proof. intros f W. rewrite !decode_encode by exact W. reflexivity. Qed.
Print Assumptions C02_backend_independent.

(* METADATA_PUSH must use stream 0: on any other stream it is dropped by the decoder (is_frame_to_ignore) *)
Theorem C02_metadata_push_nonzero_ignored : forall bk sid ign md,
  0 < sid < 2 ^ 31 -> lenN md < 2 ^ 24 -> decode bk (encode (FMetadataPush sid ign md)) = DIgnored.
Proof.
  intros bk sid ign md Hs Hl. set (f := FMetadataPush sid ign md).
  unfold encode, prefix. rewrite <- ?app_assoc.
  destruct (flags_spec f) as (Hlt & Hi & Hm & _).
  rewrite decode_header; [|cbn [fsid f]; lia|cbv; reflexivity|exact Hlt].
  change (existsb (N.eqb (ftype f)) frame_class_ids) with true. cbn [negb].
  unfold decode_body. cbn [ftype f]. ty_tests. cbn [to_ignore].
  destruct (N.eqb_spec (fsid f) CONNECTION_STREAM_ID) as [E|_]; [cbn [fsid f] in E; change CONNECTION_STREAM_ID with 0 in E; lia|].
  reflexivity.
Qed.
Print Assumptions C02_metadata_push_nonzero_ignored.
