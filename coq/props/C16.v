(* C16 — Setup handshake: faithful SETUP first; correct accept/reject.
   Statements, each proved here from the lemmas of proofs/SetupProofs.v; model in model/Setup.v. *)
From Coq Require Import ZArith List Lia.
From RSV Require Import gen.GenConst model.Frame model.Setup proofs.FrameProofs proofs.SetupProofs.
Import ListNotations.
Open Scope N_scope.

Theorem C16_constants :
  PROTOCOL_MAJOR_VERSION = 1 /\ PROTOCOL_MINOR_VERSION = 0 /\
  EC_UNSUPPORTED_SETUP = 2 /\ EC_REJECTED_SETUP = 3 /\ EC_REJECTED_RESUME = 4 /\ EC_INVALID_SETUP = 1.
Proof. exact gen_setup_constants. Qed.
Print Assumptions C16_constants.

(* the SETUP frame, as the peer decodes it from the wire under either back end, states exactly the
   configuration: version 1.0, both periods in milliseconds, both MIME types, lease flag, payload *)
Theorem C16_setup_fields : forall bk c, wf_cfg c = true -> decode bk (encode (setup_frame c)) = DOk (setup_frame c).
Proof.
  intros bk c W. rewrite decode_encode by (apply setup_frame_wf; exact W).
  unfold setup_frame. destruct (setup_payload c) as [[md d]|]; reflexivity.
Qed.
Print Assumptions C16_setup_fields.

(* milliseconds: exact on whole milliseconds, within half a millisecond for sub-millisecond parts
   (integer model of round(total_seconds()*1000); the IEEE arithmetic itself is validated, not proved) *)
Theorem C16_ms_exact : forall k, (0 <= k)%Z -> to_ms (1000 * k) = Z.to_N k.
Proof. intros k H. unfold to_ms. f_equal. lia. Qed.
Print Assumptions C16_ms_exact.
Theorem C16_ms_close : forall us, (0 <= us)%Z -> (Z.abs (1000 * Z.of_N (to_ms us) - us) <= 500)%Z.
Proof. intros us H. unfold to_ms. rewrite Z2N.id by lia. lia. Qed.
Print Assumptions C16_ms_close.

(* SETUP precedes every other frame on a new connection, and is written once, for EVERY schedule of
   application requests, provider/transport suspensions and sender steps *)
Theorem C16_setup_first : forall ls,
  let s := crun ls in
  (wire s = [] \/ exists w, wire s = TSetup :: w /\ ~ In TSetup w) /\ (ready s = false -> wire s = []).
Proof. exact setup_first. Qed.
Print Assumptions C16_setup_first.

(* the defect repaired by fix c522af0: publishing the transport before SETUP is queued breaks it *)
Theorem C16_setup_first_early_publish_refuted : exists ls, wire (fold_left estep ls conn_init) = [TOther 7].
Proof. exists [E (LApp 7); EPublishEarly; E LSend]. reflexivity. Qed.
Print Assumptions C16_setup_first_early_publish_refuted.

(* server: on_setup runs (once, with the frame's encodings and payload) exactly for a SETUP on stream 0
   without resume, with lease only if a lease publisher exists, whose on_setup does not raise *)
Theorem C16_server_accept : forall f pub raises denc mdenc md d sl,
  server_decision f pub raises = SAccept denc mdenc md d sl <->
  exists ign lease major minor ka ml,
    f = FSetup 0 ign lease major minor ka ml None mdenc denc md d /\
    (lease = true -> pub = true) /\ raises = false /\ sl = lease.
Proof. exact server_accept_iff. Qed.
Print Assumptions C16_server_accept.

(* ... and every rejection is an ERROR on stream 0 with the matching code *)
Theorem C16_server_errors : forall f pub raises sid code,
  server_decision f pub raises = SError sid code ->
  sid = 0 /\
  ((exists ign lease major minor ka ml tok mdenc denc md d,
      f = FSetup 0 ign lease major minor ka ml (Some tok) mdenc denc md d /\ code = EC_UNSUPPORTED_SETUP) \/
   (exists ign major minor ka ml mdenc denc md d,
      f = FSetup 0 ign true major minor ka ml None mdenc denc md d /\ pub = false /\ code = EC_UNSUPPORTED_SETUP) \/
   (exists ign lease major minor ka ml mdenc denc md d,
      f = FSetup 0 ign lease major minor ka ml None mdenc denc md d /\ (lease = true -> pub = true) /\
      raises = true /\ code = EC_REJECTED_SETUP) \/
   (exists ign major minor tok ls fc, f = FResume 0 ign major minor tok ls fc /\ code = EC_REJECTED_RESUME)).
Proof. exact server_errors. Qed.
Print Assumptions C16_server_errors.
