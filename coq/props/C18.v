(* C18 — Extension metadata codecs round-trip within format limits.
   Statements, each proved here from the lemmas of proofs/MetadataProofs.v; model in model/Metadata.v (composite_metadata.py,
   composite_metadata_item.py, tagging.py, routing.py, stream_data_mimetype.py, authentication*.py,
   helpers.serialize/parse_well_known_encoding, frame_helpers.serialize_128max_value / parse_type / pack_24bit /
   unpack_24bit; the id/name tables are regenerated from mimetypes.py / authentication_types.py into gen/GenMime.v).
   Entries: generic item, routing tags, data MIME type, accepted MIME types, simple / bearer authentication; encodings
   are canonicalised to their name bytes.  [None] = the library raises.
   wf_cm (decidable, model/Metadata.v) is what the round trip needs: a MIME name is a table name with a 7-bit id (not one
   of the two reserved ..._DO_NOT_USE rows) or a custom name of 1..128 bytes; a generic item does not carry the MIME type
   of a typed entry; tags <= 255 bytes; user name < 2^16 bytes; every entry body < 2^24 bytes. *)
From Coq Require Import ZArith List Bool Init.Byte.
From RSV Require Import lib.Bytes gen.GenMime model.Frame model.Metadata proofs.MetadataProofs.
Import ListNotations.
Import Strings.String.StringSyntax.
Open Scope N_scope.

(* encode then decode is the identity on every well-formed entry list (cbitstruct back end, the default) *)
Theorem C18_roundtrip : forall items, wf_cm items = true ->
  exists bs, cm_encode items = Some bs /\ cm_decode bs = Some items.
Proof. exact (roundtrip_bk Cbit). Qed.
Print Assumptions C18_roundtrip.

(* ... under either bit-packing back end, and both back ends write the same bytes *)
Theorem C18_roundtrip_either_backend : forall bk items, wf_cm items = true ->
  exists bs, cm_encode_bk bk items = Some bs /\ cm_decode bs = Some items.
Proof. exact roundtrip_bk. Qed.
Print Assumptions C18_roundtrip_either_backend.
Theorem C18_backend_independent : forall items, wf_cm items = true ->
  cm_encode_bk Native items = cm_encode_bk Cbit items.
Proof.
  induction items as [|e r IH]; [reflexivity|]. cbn [wf_cm forallb cm_encode_bk]. rewrite andb_true_iff. intros [He Hr].
  destruct (entry_roundtrip e He) as (x & Ex & _). rewrite !Ex, (IH Hr). reflexivity.
Qed.
Print Assumptions C18_backend_independent.

(* decode then encode reproduces the bytes that encode produced *)
Theorem C18_reencode : forall bk items bs, cm_encode_bk bk items = Some bs -> wf_cm items = true ->
  forall items', cm_decode bs = Some items' -> cm_encode_bk bk items' = Some bs.
Proof. intros bk items bs E Hw items' D. destruct (roundtrip_bk bk items Hw) as (bs' & E' & D'). congruence. Qed.
Print Assumptions C18_reencode.

(* the generated MIME and authentication tables: names pairwise distinct, ids pairwise distinct, every id a 7-bit id
   except on the two reserved rows, and the name->id (get_by_name) and id->name (require_by_id) lookups are exactly the
   table and mutually inverse *)
Theorem C18_tables_bijective :
  (NoDup (map fst mime_table) /\ NoDup (map snd mime_table) /\
   (forall n id, In (n, id) mime_table -> (0 <= id <= 127)%Z \/ In n reserved_names) /\
   (forall n id, mime_id_of_name n = Some id <-> In (n, id) mime_table) /\
   (forall n id, dict_get_id mime_table id = Some n <-> In (n, id) mime_table) /\
   (forall n id, mime_id_of_name n = Some id <-> dict_get_id mime_table id = Some n)) /\
  (NoDup (map fst auth_table) /\ NoDup (map snd auth_table) /\
   (forall n id, In (n, id) auth_table -> (0 <= id <= 127)%Z \/ In n []) /\
   (forall n id, auth_id_of_name n = Some id <-> In (n, id) auth_table) /\
   (forall n id, dict_get_id auth_table id = Some n <-> In (n, id) auth_table) /\
   (forall n id, auth_id_of_name n = Some id <-> dict_get_id auth_table id = Some n)).
Proof. exact (conj (table_ok_bijective _ _ mime_table_ok) (table_ok_bijective _ _ auth_table_ok)). Qed.
Print Assumptions C18_tables_bijective.
Theorem C18_mime_lookup_inverse : forall n i, mime_name_of_id i = Some n <-> mime_id_of_name n = Some (Z.of_N i).
Proof. intros n i. symmetry. apply (table_ok_bijective _ _ mime_table_ok). Qed.
Print Assumptions C18_mime_lookup_inverse.

(* an over-long custom (non-table) MIME name anywhere -- item encoding, data MIME type, accepted MIME types -- or a tag
   longer than 255 bytes anywhere makes the whole encoding fail: no bytes are produced, under either back end *)
Theorem C18_rejects_overlong : forall bk items e, In e items -> has_overlong e = true -> cm_encode_bk bk items = None.
Proof. intros bk items e Hin Ho. exact (encode_fails bk items e Hin (enc_entry_overlong bk e Ho)). Qed.
Print Assumptions C18_rejects_overlong.

(* the decoder is total: fuel = length of the input suffices and more fuel gives the same result; cm_decode satisfies
   the loop equation of CompositeMetadata.parse with no fuel in it *)
Theorem C18_decode_total : forall bs f, (length bs <= f)%nat -> cm_decode_fuel f bs = cm_decode bs.
Proof. exact decode_total. Qed.
Print Assumptions C18_decode_total.
Theorem C18_decode_unfold : forall buf, cm_decode buf =
  match buf with
  | [] => Some []
  | _ =>
      match parse_wk mime_name_of_id buf with
      | None => None
      | Some (enc, off) =>
          match get_be 3 (dropN buf off) with
          | None => None
          | Some (len, r2) =>
              match parse_item enc (takeN r2 len) with
              | None => None
              | Some e => match cm_decode (dropN r2 len) with Some es => Some (e :: es) | None => None end
              end
          end
      end
  end.
Proof.
  intros [|b r]; [reflexivity|]. rewrite decode_cons by discriminate. unfold dec_entry.
  destruct (parse_wk _ _) as [[enc off]|]; [|reflexivity]. destruct (get_be _ _) as [[len r2]|]; [|reflexivity].
  destruct (parse_item _ _); reflexivity.
Qed.
Print Assumptions C18_decode_unfold.

(* each hypothesis of wf_cm is needed: empty custom name; 129-byte custom name; the two reserved rows; a typed MIME
   name on a generic item (decoded as the typed entry, or the decoder raises); a 256-byte tag; a 2^16-byte user name;
   a 2^24-byte body (cbitstruct raises, the native back end writes length 0) *)
Theorem C18_hypotheses_needed :
  rt_fails [EItem [] [x01]] /\
  rt_fails [EItem (repeat x61 129) [x01]] /\
  rt_fails [EItem (ascii "UNPARSEABLE_MIME_TYPE_DO_NOT_USE") [x01; x61]] /\
  rt_fails [EDataMime (ascii "UNKNOWN_YET_RESERVED_DO_NOT_USE")] /\
  rt_fails [EItem (ascii "message/x.rsocket.routing.v0") [x01; x61]] /\
  (exists bs, cm_encode [EItem (ascii "message/x.rsocket.authentication.v0") []] = Some bs /\ cm_decode bs = None) /\
  rt_fails [ERouting [repeat x61 256]] /\
  rt_fails [EAuth (ASimple user_65536 [x62])] /\
  (forall c, lenN c = 16777216 ->
     cm_encode_bk Cbit [EItem [x61] c] = None /\
     exists bs, cm_encode_bk Native [EItem [x61] c] = Some bs /\ cm_decode bs <> Some [EItem [x61] c]).
Proof.
  repeat split;
    [exact ex_empty_name|exact ex_name_129|exact ex_reserved_1|exact ex_reserved_2|exact ex_typed_name|
     exact ex_typed_name_raises|exact ex_tag_256|exact ex_username_65536| | ]; apply ex_body_2p24; assumption.
Qed.
Print Assumptions C18_hypotheses_needed.

(* "decode then encode reproduces the bytes" does NOT extend to arbitrary input bytes: the decoder accepts non-canonical
   spellings (a table name written out as a custom name; typed entries and authentication types likewise) and truncated
   last entries, and re-encoding gives different bytes.  C18_reencode (bytes produced by encode) is the true statement. *)
Theorem C18_reencode_arbitrary_refuted :
  (exists bs items, cm_decode bs = Some items /\ exists bs', cm_encode items = Some bs' /\ bs' <> bs /\
                    bs = x07 :: ascii "text/css" ++ [x00; x00; x01; x61]) /\
  (exists bs items, cm_decode bs = Some items /\ exists bs', cm_encode items = Some bs' /\ bs' <> bs /\
                    bs = [x00; x61; x00; x00; x05; x62; x63]).
Proof.
  split; eexists; eexists; (split; [|eexists; split; [|split; [|reflexivity]]]).
  - vm_compute. reflexivity.
  - vm_compute. reflexivity.
  - vm_compute. discriminate.
  - vm_compute. reflexivity.
  - vm_compute. reflexivity.
  - vm_compute. discriminate.
Qed.
Print Assumptions C18_reencode_arbitrary_refuted.
