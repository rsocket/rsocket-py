(* C14 — Lease: no request without a valid lease, never more than granted.
   Statements, each proved here from the lemmas of proofs/LeaseProofs.v; model in model/Lease.v (lease.py DefinedLease,
   RSocketBase.send_request / handle_lease / send_lease).  Virtual time in microseconds. *)
From Coq Require Import ZArith List Bool Lia.
From RSV Require Import model.Frame model.Setup model.Lease proofs.FrameProofs proofs.LeaseProofs.
Import ListNotations.
Open Scope Z_scope.

(* no request is sent before the first LEASE arrives: the initial lease grants nothing *)
Theorem C14_none_before_first_lease : forall evs t0 qm, no_lease evs -> sent (lrun t0 qm evs) = [].
Proof.
  intros evs t0 qm Hn. pose proof (no_lease_count evs (rq_init t0 qm) Hn) as H. unfold lrun, credit, remaining in *.
  destruct (sent (fold_left _ _ _)); [reflexivity|]. cbn [rq_init sent cur ln lcount length] in H. lia.
Qed.
Print Assumptions C14_none_before_first_lease.

(* under each lease (from one LEASE frame to the next) at most the granted number of requests is sent,
   those released from the queue by that LEASE included; a count of 0 or less grants none *)
Theorem C14_at_most_granted : forall post s n ttl now, no_lease post ->
  let s1 := fold_left lstep (ELease n ttl now :: post) s in
  Z.of_nat (length (sent s1)) - Z.of_nat (length (sent s)) <= Z.max 0 n.
Proof.
  intros post s n ttl now Hn. cbn [fold_left]. cbv zeta.
  pose proof (lstep_count s (ELease n ttl now)) as [H0 _].
  pose proof (no_lease_count post (lstep s (ELease n ttl now)) Hn) as H1. unfold credit, remaining in *. lia.
Qed.
Print Assumptions C14_at_most_granted.

(* a request is sent only while the lease's time-to-live has not elapsed *)
Theorem C14_within_ttl : forall s e,
  match e with
  | EReq _ now => (length (sent s) < length (sent (lstep s e)))%nat -> now < lcreated (cur s) + lttl (cur s)
  | ELease n ttl now => (length (sent s) < length (sent (lstep s e)))%nat -> 0 < ttl
  end.
Proof. intros s e. pose proof (lstep_count s e) as H. destruct e; destruct H as [_ H]; exact H. Qed.
Print Assumptions C14_within_ttl.

(* FIFO, at most once, none lost: for every history with non-decreasing times and an unbounded request
   queue, what has been sent followed by what is still queued is exactly the sequence of requests in the
   order they were made (so nothing overtakes, nothing is duplicated, nothing disappears) *)
Theorem C14_fifo : forall evs t0,
  sorted_from t0 evs ->
  let s := lrun t0 0 evs in sent s ++ queue s = req_ids evs /\ refused s = [].
Proof.
  intros evs t0 Hs. destruct (fifo_run evs (rq_init t0 0) t0 (J_init t0 0) Hs) as (kept & H1 & _ & H3).
  destruct (H3 eq_refl) as [-> H2]. split; [exact H1|exact H2].
Qed.
Print Assumptions C14_fifo.

(* with a bounded queue: still in order, never duplicated; only refused requests (QueueFull to the caller) are missing *)
Theorem C14_fifo_bounded : forall evs t0 qm, sorted_from t0 evs ->
  let s := lrun t0 qm evs in exists kept, sent s ++ queue s = kept /\ sublist kept (req_ids evs).
Proof.
  intros evs t0 qm Hs. destruct (fifo_run evs (rq_init t0 qm) t0 (J_init t0 qm) Hs) as (kept & H1 & H2 & _).
  exists kept. split; [exact H1|exact H2].
Qed.
Print Assumptions C14_fifo_bounded.

(* responder: a published lease (n, ttl) is announced as LEASE(ttl in ms, n), as the peer decodes it *)
Theorem C14_announce : forall bk n ttl_us, (n < 2 ^ 31)%N -> 0 <= ttl_us < 2147483647000 ->
  decode bk (encode (announce n ttl_us)) = DOk (FLease 0 false (to_ms ttl_us) n []).
Proof.
  intros bk n ttl_us Hn Ht. unfold announce. rewrite decode_encode; [reflexivity|].
  unfold wf. cbn [fsid fmd]. repeat (apply andb_true_iff; split); try reflexivity.
  - apply N.ltb_lt. unfold to_ms.
    assert ((ttl_us + 500) / 1000 < 2147483648)%Z by (apply Z.div_lt_upper_bound; lia).
    change (2 ^ 31)%N with 2147483648%N. lia.
  - apply N.ltb_lt. exact Hn.
Qed.
Print Assumptions C14_announce.
