(* C15 — Keepalive: echo, periodic emission, timeout detection.
   Statements, each proved here from the lemmas of proofs/KeepaliveProofs.v; model in model/Keepalive.v
   (RSocketBase.handle_keep_alive, RSocketClient._keepalive_send_task / _keepalive_timeout_task).
   Time is virtual (microseconds, Z); timer lateness is an explicit parameter. *)
From Coq Require Import ZArith List Lia.
From RSV Require Import model.Frame model.Keepalive proofs.FrameProofs proofs.KeepaliveProofs.
Import ListNotations.
Open Scope Z_scope.

(* A KEEPALIVE with the respond flag is answered by exactly one KEEPALIVE without the flag, same
   position, same data; one without the flag, and every other frame type, by nothing. *)
Theorem C15_echo : forall f,
  match f with
  | FKeepalive sid ign true pos d => ka_echo f = [FKeepalive sid ign false pos d]
  | _ => ka_echo f = []
  end.
Proof. intro f. destruct f; try reflexivity. destruct respond; reflexivity. Qed.
Print Assumptions C15_echo.

(* ... and the answer, as decoded by the peer from the wire under either back end, is that frame *)
Theorem C15_echo_on_wire : forall bk sid ign pos d, (sid < 2 ^ 31)%N -> (pos < 2 ^ 63)%N ->
  map (fun g => decode bk (encode g)) (ka_echo (FKeepalive sid ign true pos d)) = [DOk (FKeepalive sid ign false pos d)].
Proof.
  intros bk sid ign pos d Hs Hp. cbn [ka_echo map]. rewrite decode_encode; [reflexivity|].
  apply N.ltb_lt in Hs, Hp. unfold wf. cbn [fsid fmd]. rewrite Hs, Hp. reflexivity.
Qed.
Print Assumptions C15_echo_on_wire.

(* periodic emission: with exact timers the n-th probe is queued at t0 + n*P *)
Theorem C15_period : forall n t0 P,
  send_times t0 P (repeat 0 n) = map (fun k => t0 + P * Z.of_nat k) (seq 1 n).
Proof.
  induction n as [|n IH]; intros t0 P; [reflexivity|].
  cbn [repeat send_times]. rewrite IH. cbn [seq map]. f_equal; [lia|].
  rewrite <- (seq_shift n 1), map_map. apply map_ext. intro k. lia.
Qed.
Print Assumptions C15_period.

(* no false timeout: while keepalives keep arriving at most L apart (counting from the start of the
   connection) and a check always has a later arrival to come, the callback never runs *)
Theorem C15_no_false_timeout : forall evs L last, covered L last evs -> detect L last evs = [].
Proof.
  induction evs as [|e r IH]; intros L last H; [reflexivity|].
  destruct e as [t|t]; cbn [covered detect] in *.
  - destruct H as [_ H]. apply IH. exact H.
  - destruct H as [(a & _ & Ht & Ha) H].
    destruct (Z.ltb_spec L (t - last)) as [Hlt|_]; [lia|]. apply IH. exact H.
Qed.
Print Assumptions C15_no_false_timeout.

(* detection: a check more than L after the last moment s at which anything arrived invokes the callback *)
Theorem C15_detects : forall evs L last s c,
  last <= s -> L < c - s -> In (Check c) evs -> silent_until s c evs -> In c (detect L last evs).
Proof.
  induction evs as [|e r IH]; intros L last s c Hl Hc Hin Hs; [destruct Hin|].
  destruct e as [t|t]; cbn [detect silent_until] in *.
  - destruct Hin as [Hin|Hin]; [discriminate|]. destruct Hs as [Ht Hs]. apply (IH L t s c); assumption.
  - destruct (Z.eqb_spec t c) as [->|Hne].
    + destruct (Z.ltb_spec L (c - last)) as [_|Hge]; [left; reflexivity|lia].
    + destruct Hin as [Hin|Hin]; [congruence|].
      destruct (L <? t - last); [right|]; apply (IH L last s c); assumption.
Qed.
Print Assumptions C15_detects.

(* ... and such a check exists no later than 2L + delta after s when every timer is at most delta late *)
Theorem C15_check_within : forall ds t0 L delta s,
  0 < L -> Forall (fun d => 0 <= d <= delta) ds -> t0 <= s ->
  (exists c, In c (check_times t0 L ds) /\ s + L < c) ->
  exists c, In c (check_times t0 L ds) /\ s + L < c <= s + 2 * L + delta.
Proof.
  intros ds t0 L delta s HL HF Hs. apply check_within; [|lia]. exact (Forall_impl _ (fun d => @proj2 _ _) HF).
Qed.
Print Assumptions C15_check_within.
