(* C08 — Frames emitted are legal RSocket for the emitter's role.
   Every frame the endpoint queues is an XEnq effect of model/Endpoint.v; queue order is wire order per stream
   (C05_per_stream). *)
From Coq Require Import NArith List Init.Byte.
From RSV Require Import gen.GenConst model.Frame model.Fragmenter model.StreamIds model.Setup model.Endpoint proofs.StreamIdsProofs proofs.SetupProofs proofs.EndpointObjects proofs.EndpointProofs proofs.EndpointWire proofs.EndpointWireTypes.
Import ListNotations.
Open Scope N_scope.

(* a client's first frame on a connection is SETUP, written once, for EVERY schedule of application requests,
   provider / transport suspensions and sender steps (C16_setup_first) *)
Theorem C08_setup_first : forall ls,
  let s := crun ls in
  (wire s = [] \/ exists w, wire s = TSetup :: w /\ ~ In TSetup w) /\ (ready s = false -> wire s = []).
Proof. exact setup_first. Qed.
Print Assumptions C08_setup_first.

(* the ids an endpoint opens: never 0, its own parity, not in use, over every history of allocations and releases *)
Theorem C08_opened_ids :
  forall m first ops, 1 <= m -> first = 1 \/ first = 2 ->
    Forall (fun '(id, act) => id <> 0 /\ id < 2 ^ m /\ id mod 2 = first mod 2 /\ mem id act = false)
           (allocs (sc_init first (N.ones m)) ops).
Proof. exact allocs_history. Qed.
Print Assumptions C08_opened_ids.

(* stream and channel requests carry the object's initial request-n and are never fragments-in-progress; a channel
   request is flagged complete exactly when there is no local publisher *)
Theorem C08_request_frames u e oid hs md d o : nth_error (objs e) oid = Some o ->
  forall g, In g (enqs (snd (ep_step u e (LSubscribe oid hs md d)))) ->
  match g with
  | FRequestStream s _ fo n _ _ => s = o_sid o /\ fo = false /\ n = o_n o
  | FRequestChannel s _ fo co n _ _ => s = o_sid o /\ fo = false /\ n = o_n o /\ co = negb (o_has_pub o)
  | _ => False
  end.
Proof.
  intros Ho g. rewrite (local_step_obj u e (LSubscribe oid hs md d) oid o eq_refl Ho). unfold perform, obj_local. cbn [snd].
  destruct (o_kind o); try destruct hs; try destruct (o_has_pub o); cbn [mark stay c_effs enqs flat_map app In];
    intro Hin; try contradiction; destruct Hin as [<-|Hin]; try contradiction; auto.
Qed.
Print Assumptions C08_request_frames.

(* that request-n is positive: the default is, and initial_request_n(n) with n <= 0 raises, changes nothing and
   sends nothing *)
Theorem C08_default_n_positive k sid : 0 < o_n (mk_obj k sid).
Proof. reflexivity. Qed.
Print Assumptions C08_default_n_positive.
Theorem C08_nonpositive_n_rejected u e oid n :
  snd (ep_step u e (LInitialN oid n false)) = (match nth_error (objs e) oid with Some _ => [XRaised] | None => [] end) /\
  objs (fst (ep_step u e (LInitialN oid n false))) = objs e.
Proof. cbn [ep_step]. unfold with_obj. destruct (nth_error (objs e) oid); split; reflexivity. Qed.
Print Assumptions C08_nonpositive_n_rejected.

(* what an endpoint sends in reaction to a received frame — ANY frame, any handler behaviour, any reachable state:
   an ERROR on that frame's stream, the KEEPALIVE answer on stream 0, or the empty COMPLETE with which a responder
   without a publisher closes its direction of a channel; nothing else, and nothing on another stream *)
Theorem C08_reactions u e f o : EndpointProofs.Inv e -> Forall (reaction_ok f) (enqs (snd (ep_step u e (LRecv f o)))).
Proof. intro I. exact (recv_frame_enqs e f o u (inv_cwf e I)). Qed.
Print Assumptions C08_reactions.

(* every application call, done-callback and publisher signal on an object queues frames on that object's stream only *)
Theorem C08_local_actions u e l oid : label_oid l = Some oid -> on_own_stream e oid (snd (ep_step u e l)).
Proof.
  intro Hl. unfold on_own_stream. destruct (nth_error (objs e) oid) as [ob|] eqn:Ho.
  - rewrite (local_step_obj u e l oid ob Hl Ho). exact (enq_on_enqs _ _ (obj_step_enq oid ob (OnLocal l))).
  - rewrite (local_step_none u e l oid Hl Ho). reflexivity.
Qed.
Print Assumptions C08_local_actions.

(* ... and only frame types its role in that interaction allows: the table [kind_allows] (request-response requester:
   REQUEST_RESPONSE, CANCEL; stream requester: REQUEST_STREAM, REQUEST_N, CANCEL; channel requester: REQUEST_CHANNEL,
   REQUEST_N, CANCEL, PAYLOAD, ERROR; responders: PAYLOAD, ERROR, and for a channel REQUEST_N, CANCEL), for every section
   the API offers on such an object [label_fits] *)
Theorem C08_local_action_types u e l oid o : label_oid l = Some oid -> nth_error (objs e) oid = Some o ->
  label_fits l (o_kind o) = true ->
  Forall (fun g => kind_allows (o_kind o) g = true) (enqs (snd (ep_step u e l))).
Proof. intros Hl Ho Hf. rewrite (local_step_obj u e l oid o Hl Ho). exact (obj_local_types oid o l Hf). Qed.
Print Assumptions C08_local_action_types.

(* each new stream begins with the request frame of its interaction model, on the freshly allocated id (stream and
   channel requests are sent by subscribe(): C08_request_frames) *)
Theorem C08_request_opens_stream u e md d sid e1 : alloc e = (Some sid, e1) ->
  enqs (snd (ep_step u e (LReqResponse md d))) = [FRequestResponse sid false false md d] /\
  enqs (snd (ep_step u e (LFnf md d))) = [FRequestFnf sid false false md d] /\
  enqs (snd (ep_step u e (LReqStream md d))) = [] /\ (forall hp, enqs (snd (ep_step u e (LReqChannel md d hp))) = []).
Proof. intro H. cbn [ep_step]. rewrite H. repeat split; reflexivity. Qed.
Print Assumptions C08_request_opens_stream.

(* a request-response requester never answers a frame (no ERROR when the response races the caller's cancellation:
   the defect repaired by fix 96f0669) *)
Theorem C08_rr_requester_silent e oid o f u : o_kind o = KRRReq ->
  enqs (snd (fst (handler_frame e oid o f u))) = [] /\
  (snd (handler_frame e oid o f u) = true -> exists s i c d, f = FError s i c d /\ u = false /\ o_fut o = FPending).
Proof.
  intro Hk. unfold handler_frame. rewrite Hk.
  destruct f; try (split; [reflexivity|discriminate]); destruct (o_fut o) eqn:Ef; try (split; [reflexivity|discriminate]).
  destruct u; (split; [reflexivity|]); [discriminate|]. intros _. exists sid, ign, code, d. auto.
Qed.
Print Assumptions C08_rr_requester_silent.

(* once a stream is gone (finished in any of the ways of C10) frames still arriving for it cause nothing to be sent *)
Theorem C08_nothing_after_finish e f o u : is_fragmentable f = false -> is_request_type f = false ->
  fsid f <> CONNECTION_STREAM_ID -> tget (table e) (fsid f) = None -> recv_frame e f o u = (e, []).
Proof. exact (unknown_stream_dropped e f o u). Qed.
Print Assumptions C08_nothing_after_finish.

(* when the connection is lost the sweep queues nothing at all *)
Theorem C08_close_sends_nothing u e : enqs (snd (ep_step u e LClose)) = [].
Proof. exact (close_sends_nothing u e). Qed.
Print Assumptions C08_close_sends_nothing.

(* REFUTED for abnormal endings of a channel (finding F16, KF-C08-channel-after-terminal): after its own CANCEL the
   requester's publisher direction stays open and PAYLOAD frames are still queued on the stream *)
Theorem C08_channel_payload_after_cancel_refuted :
  enqs (snd (ep_step true (fst (ep_step true f16_ep (LCancel 0))) (LPubNext 0 [] [x09] false)))
  = [FPayload 1 false false false true [] [x09]].
Proof. vm_compute. reflexivity. Qed.
Print Assumptions C08_channel_payload_after_cancel_refuted.
