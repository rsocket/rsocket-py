(* C20 — Rx/ReactiveX adapters are transparent.
   Statements, each proved here from the lemmas of proofs/RxAdapterProofs.v (requester side, handler side, delegation) and
   proofs/PublisherProofs.v (Observable -> Publisher: the C06 theorems restated for the adapters' publisher).
   Model: model/RxAdapter.v, model/Publisher.v; delegation tables regenerated from both adapter sources on every run
   (gen/GenAdapters.v).  The two packages (rx_support = Rx 3, reactivex = ReactiveX 4) are the same code up to imports;
   the correspondence runs both. *)
From Coq Require Import NArith List Lia.
From RSV Require Import gen.GenAdapters model.RxAdapter model.Publisher proofs.RxAdapterProofs proofs.PublisherProofs.
Import ListNotations.
Open Scope N_scope.

(* Publisher -> Observable (client results, both directions of a channel): for EVERY history of subscriber signals and
   turns of the request task, the observer sees exactly the elements, completion and error the stream delivered, in order
   (an element flagged complete = element then completion) *)
Theorem C20_requester_transparent : forall limit is s, snd (fst (rx_run limit s is)) = events_of is.
Proof.
  intro limit. induction is as [|i r IH]; intro s; [reflexivity|]. rewrite rx_run_cons. cbn [fst snd].
  rewrite IH, rx_step_events. symmetry. apply events_of_cons.
Qed.
Print Assumptions C20_requester_transparent.
Theorem C20_handler_side_transparent : forall limit is g, snd (fst (hs_run limit g is)) = events_of is.
Proof.
  intro limit. induction is as [|i r IH]; intro g; [reflexivity|]. rewrite hs_run_cons. cbn [fst snd].
  rewrite IH, hs_step_events. symmetry. apply events_of_cons.
Qed.
Print Assumptions C20_handler_side_transparent.

(* the request limit: whatever is requested after the stream request is requested in amounts of exactly the limit ... *)
Theorem C20_requests_are_limit : forall limit is s, Forall (fun n => n = limit) (snd (rx_run limit s is)).
Proof.
  intro limit. induction is as [|i r IH]; intro s; [constructor|]. rewrite rx_run_cons. cbn [snd]. apply Forall_app. split; [|apply IH].
  unfold rx_step. destruct i; cbn [snd]; try constructor.
  - destruct complete; [constructor|]. destruct (_ =? limit); constructor.
  - destruct (want_more s); repeat constructor.
Qed.
Print Assumptions C20_requests_are_limit.

(* ... and only for elements received: with the initial [limit] of the request frame, never more than [limit] elements
   are outstanding, over every history *)
Theorem C20_outstanding_at_most_limit : forall limit is, 0 < limit ->
  finished (fst (fst (rx_run limit rxs_init is))) = true \/ sumN (snd (rx_run limit rxs_init is)) <= elements is.
Proof.
  intros limit is _. right. pose proof (rx_credit_bound limit is rxs_init) as H.
  cbn [req_pending rxs_init want_more got] in H. lia.
Qed.
Print Assumptions C20_outstanding_at_most_limit.

(* Observable -> Publisher (handler results, the requester's side of a channel): one notification per credit; for every
   schedule what reaches the subscriber (hence the wire) never exceeds the credit and is a prefix of the observable's
   notifications in order; at quiescence exactly the credited prefix; nothing after cancel (dispose) *)
Theorem C20_handler_observable_respects_credit : forall vs fails ls,
  let evs := obs_events vs fails in let s := prun evs ls in
  lenE (Publisher.delivered s) + lenE (outq s) <= requested ls /\ exists rest, evs = Publisher.delivered s ++ rest.
Proof. intros vs fails ls. apply credit_safety. Qed.
Print Assumptions C20_handler_observable_respects_credit.
Theorem C20_handler_observable_delivers : forall vs fails ls,
  let evs := obs_events vs fails in let s := prun evs ls in
  quiescent s = true -> cancelled s = false -> Publisher.delivered s = settled evs (requested ls).
Proof. intros vs fails ls. apply settled_delivery, obs_events_wf. Qed.
Print Assumptions C20_handler_observable_delivers.
Theorem C20_dispose_silences : forall ls s, cancelled s = true ->
  Publisher.delivered (fold_left pstep ls s) = Publisher.delivered s /\ cancelled (fold_left pstep ls s) = true.
Proof. exact cancel_silences. Qed.
Print Assumptions C20_dispose_silences.

(* every RequestHandler method of both handler adapters is handed to the delegate's method of the same name (the
   tables are regenerated from reactivex_handler_adapter.py and rx_handler_adapter.py: on_metadata_push used to call
   itself — fix 2906951) *)
Theorem C20_adapters_delegate_everything : delegates_all reactivex_adapter = true /\ delegates_all rx_adapter = true.
Proof. split; vm_compute; reflexivity. Qed.
Print Assumptions C20_adapters_delegate_everything.

Theorem C20_example :
  rx_run 2 rxs_init [SNext 1 false; SNext 2 false; STask; SNext 3 false; SNext 4 true]
  = ({| got := 2; want_more := false; finished := true |}, [ONext 1; ONext 2; ONext 3; ONext 4; OCompleted], [2]).
Proof. exact batching_example. Qed.
Print Assumptions C20_example.
