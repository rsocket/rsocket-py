(* C10 — No per-stream state survives a terminated interaction.
   Model: model/Endpoint.v.  [gone e sid]: stream sid has neither a table entry nor a partially reassembled frame, hence
   its id is available again (assert_stream_id_available looks at exactly the table).  Each theorem is for ANY state in
   which the ending occurs. *)
From Coq Require Import NArith List Bool.
From RSV Require Import gen.GenConst model.Frame model.Endpoint proofs.EndpointProofs proofs.EndpointSweep.
Import ListNotations.
Open Scope N_scope.

(* request-response, requester: response or error delivered (an ERROR whose text does not decode leaves a pending
   awaitable registered — the caller can still cancel it) *)
Theorem C10_rr_requester e oid o f u : o_kind o = KRRReq ->
  (match f with FPayload _ _ _ _ _ _ _ => True | FError _ _ _ _ => u = true \/ o_fut o <> FPending | _ => False end) ->
  gone (fst (fst (handler_frame e oid o f u))) (o_sid o).
Proof.
  intros Hk Hf. unfold handler_frame. rewrite Hk. destruct f; try contradiction; destruct (o_fut o); try apply finish_gone.
  destruct Hf as [->|Hp]; [apply finish_gone|congruence].
Qed.
Print Assumptions C10_rr_requester.

(* ... or cancelled by the caller before any response *)
Theorem C10_rr_requester_cancel e oid o u r : nth_error (objs e) oid = Some o -> o_kind o = KRRReq -> o_fut o = FCancelled ->
  o_responded o = false -> gone (fst (ep_step u e (LFutCb oid r))) (o_sid o).
Proof. intros Ho Hk Hf Hr. cbn [ep_step]. unfold with_obj. rewrite Ho, Hk, Hf, Hr. apply finish_gone. Qed.
Print Assumptions C10_rr_requester_cancel.

(* request-response, responder: the application's future completes in any way, or the peer cancels *)
Theorem C10_rr_responder e oid o u r : nth_error (objs e) oid = Some o -> o_kind o = KRRResp ->
  gone (fst (ep_step u e (LFutCb oid r))) (o_sid o) /\
  snd (ep_step u e (LFutCb oid r)) =
    match r with ARResult md d => [XEnq (f_payload (o_sid o) md d true true)]
               | ARError => [XEnq (f_error (o_sid o) EC_APPLICATION_ERROR [])] | ARCancel => [] end.
Proof. intros Ho Hk. cbn [ep_step]. unfold with_obj. rewrite Ho, Hk. destruct r; split; try reflexivity; apply finish_gone. Qed.
Print Assumptions C10_rr_responder.

Theorem C10_rr_responder_cancelled e oid o u : o_kind o = KRRResp ->
  let '(e', effs, raised) := handler_frame e oid o (FCancel (o_sid o) false) u in
  gone e' (o_sid o) /\ raised = false /\ effs = (match o_fut o with FPending => [XAppFutCancel oid] | _ => [] end).
Proof. exact (cancel_rr_responder e oid o u). Qed.
Print Assumptions C10_rr_responder_cancelled.

(* request-stream, requester: completion (flagged on the last element or empty), peer error, local cancel *)
Theorem C10_rs_requester_complete e oid o sid ign fo nx md d u : o_kind o = KRSReq -> o_has_sub o = true ->
  let '(e', effs, raised) := handler_frame e oid o (FPayload sid ign fo true nx md d) u in
  gone e' (o_sid o) /\ raised = false /\ effs = [XCb oid (if nx then SNext md d true else SComplete)].
Proof.
  intros Hk Hs. unfold handler_frame. rewrite Hk, Hs, orb_true_r. destruct nx; repeat split; apply finish_gone.
Qed.
Print Assumptions C10_rs_requester_complete.

Theorem C10_rs_requester_error e oid o sid ign code d : o_kind o = KRSReq -> o_has_sub o = true ->
  let '(e', effs, raised) := handler_frame e oid o (FError sid ign code d) true in
  gone e' (o_sid o) /\ raised = false /\ effs = [XCb oid SError].
Proof. intros Hk Hs. unfold handler_frame. rewrite Hk, Hs. cbn [negb]. repeat split; apply finish_gone. Qed.
Print Assumptions C10_rs_requester_error.

Theorem C10_rs_requester_cancel u e oid o : nth_error (objs e) oid = Some o -> o_kind o = KRSReq ->
  gone (fst (ep_step u e (LCancel oid))) (o_sid o).
Proof. intros Ho Hk. cbn [ep_step]. unfold with_obj. rewrite Ho, Hk. apply finish_gone. Qed.
Print Assumptions C10_rs_requester_cancel.

(* request-stream, responder: the publisher's three terminal signals, and CANCEL from the peer *)
Theorem C10_rs_responder u e oid o : nth_error (objs e) oid = Some o -> o_kind o = KRSResp ->
  (forall md d, ep_step u e (LPubNext oid md d true) = (finish e (o_sid o), [XEnq (f_payload (o_sid o) md d true true)])) /\
  ep_step u e (LPubComplete oid) = (finish e (o_sid o), [XEnq (f_payload (o_sid o) [] [] true false)]) /\
  ep_step u e (LPubError oid) = (finish e (o_sid o), [XEnq (f_error (o_sid o) EC_APPLICATION_ERROR [])]) /\
  handler_frame e oid o (FCancel (o_sid o) false) u = (finish e (o_sid o), [XPub oid PCancelOp], false).
Proof. intros Ho Hk. cbn [ep_step]. unfold with_obj, handler_frame. rewrite Ho, Hk. repeat split; reflexivity. Qed.
Print Assumptions C10_rs_responder.
Theorem C10_finish_gone e sid : gone (finish e sid) sid.
Proof. exact (finish_gone e sid). Qed.
Print Assumptions C10_finish_gone.

(* channel: the two directions close in either order; the entry goes exactly when both are closed *)
Theorem C10_channel_both e oid o s r : is_chan (o_kind o) = true ->
  (o_sent o || s) && (o_recv o || r) = true -> gone (chan_mark e oid o s r) (o_sid o).
Proof. intros _ H. unfold chan_mark. cbn [o_sent o_recv upd_marks]. rewrite H. apply finish_gone. Qed.
Print Assumptions C10_channel_both.
Theorem C10_channel_half_closed_stays e oid o s r : (o_sent o || s) && (o_recv o || r) = false ->
  table (chan_mark e oid o s r) = table e.
Proof. intro H. unfold chan_mark. cbn [o_sent o_recv upd_marks]. rewrite H. reflexivity. Qed.
Print Assumptions C10_channel_half_closed_stays.

(* fragments still in flight for a stream that is gone are dropped, not buffered (defect repaired in the repository:
   they used to be kept in the reassembly cache for the life of the connection) *)
Theorem C10_inflight_fragment_dropped e sid ign co nx md d o u : gone e sid ->
  recv_frame e (FPayload sid ign true co nx md d) o u = (e, []).
Proof. intros [Ht Hc]. unfold recv_frame, stray_fragment. rewrite Ht, Hc. reflexivity. Qed.
Print Assumptions C10_inflight_fragment_dropped.

(* fire-and-forget never gets an entry; its id is released *)
Theorem C10_fnf u e md d sid e1 : alloc e = (Some sid, e1) -> gone (fst (ep_step u e (LFnf md d))) sid.
Proof. intro H. cbn [ep_step]. rewrite H. apply finish_gone. Qed.
Print Assumptions C10_fnf.

(* loss of the connection empties the table, from every reachable state *)
Theorem C10_close_empties u e : Inv e -> table (fst (ep_step u e LClose)) = [].
Proof. intros _. exact (close_empties u e). Qed.
Print Assumptions C10_close_empties.

(* REFUTED for abnormal endings of a channel (finding F16, KF-C10-channel-abnormal-end): ERROR and CANCEL close one
   direction only, so with the other direction still open the entry survives the termination of the interaction.
   Witnesses, replayed on the implementation by the check, on a requester channel with a local publisher
   (f16_ep, proofs/EndpointProofs.v). *)
Theorem C10_channel_error_refuted :
  tget (table (fst (recv_frame f16_ep (FError 1 false EC_APPLICATION_ERROR []) ONone true))) 1 = Some 0%nat.
Proof. vm_compute. reflexivity. Qed.
Print Assumptions C10_channel_error_refuted.
Theorem C10_channel_cancel_refuted :
  tget (table (fst (ep_step true f16_ep (LCancel 0)))) 1 = Some 0%nat.
Proof. vm_compute. reflexivity. Qed.
Print Assumptions C10_channel_cancel_refuted.
