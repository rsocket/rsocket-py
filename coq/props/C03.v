(* C03 — Fragmentation and reassembly are exact and respect the size limit.
   Statements, each proved here from the lemmas of proofs/FragmenterProofs.v; model in model/Fragmenter.v
   (frame_fragmenter.py, frame.new_frame_fragment/get_header_length, frame_fragment_cache.py).
   All theorems quantify over every fragmentable frame value (five types), every metadata and data
   byte string, every fragment size >= MINIMUM_FRAGMENT_SIZE_BYTES (64, regenerated) and both framing modes. *)
From Coq Require Import NArith List Lia.
From RSV Require Import gen.GenConst lib.Bytes model.Frame model.Fragmenter proofs.FrameProofs proofs.FragmenterProofs.
Import ListNotations.
Open Scope N_scope.

Theorem C03_tables :
  fragmentable_ids = [FT_PAYLOAD; FT_REQUEST_RESPONSE; FT_REQUEST_CHANNEL; FT_REQUEST_STREAM; FT_REQUEST_FNF] /\
  frame_header_length_table = [(FT_PAYLOAD, 6); (FT_REQUEST_RESPONSE, 6); (FT_REQUEST_FNF, 6); (FT_REQUEST_STREAM, 10); (FT_REQUEST_CHANNEL, 10)] /\
  MINIMUM_FRAGMENT_SIZE_BYTES = 64.
Proof. exact gen_fragment_tables. Qed.
Print Assumptions C03_tables.

(* the per-type header budget of the fragmenter equals the fixed part of that type's encoding *)
Theorem C03_header_budget : forall f, is_fragmentable f = true -> header_length_of f = 6 + lenN (middle f).
Proof.
  intro f. destruct f; cbn [is_fragmentable ftype]; intro H; try discriminate H; cbn [middle];
    rewrite ?lenN_be, ?lenN_nil; reflexivity.
Qed.
Print Assumptions C03_header_budget.

(* the fragments carry exactly the metadata and exactly the data of the frame, in order *)
Theorem C03_content : forall f sz lenreq, is_fragmentable f = true -> MINIMUM_FRAGMENT_SIZE_BYTES <= sz ->
  concat (map fmd (frame_fragments f (Some sz) lenreq)) = fmd f /\
  concat (map fdata (frame_fragments f (Some sz) lenreq)) = fdata f.
Proof.
  intros f sz lenreq Hf Hs. destruct (frs_cut f sz lenreq Hf Hs) as (fgs & -> & C).
  apply cut_content in C. destruct C as [<- <-]. rewrite !map_map.
  split; f_equal; apply map_ext; intro g; [apply mk_fmd|apply mk_fdata].
Qed.
Print Assumptions C03_content.

(* at least one fragment; the first has the original type and initial request-n, the rest are PAYLOAD;
   all on the frame's stream; FOLLOWS on all but the last; COMPLETE only on the last, equal to the frame's *)
Theorem C03_shape : forall f sz lenreq, is_fragmentable f = true -> MINIMUM_FRAGMENT_SIZE_BYTES <= sz ->
  let frs := frame_fragments f (Some sz) lenreq in
  frs <> [] /\
  (forall g r, frs = g :: r -> ftype g = ftype f /\ freqn g = freqn f /\ Forall (fun h => ftype h = FT_PAYLOAD) r) /\
  Forall (fun g => fsid g = fsid f /\ fign g = fign f) frs /\
  (exists init l, frs = init ++ [l] /\ ffollows l = false /\ fcomplete l = fcomplete f /\
                  Forall (fun g => ffollows g = true /\ fcomplete g = false) init).
Proof.
  intros f sz lenreq Hf Hs frs. destruct (frs_cut f sz lenreq Hf Hs) as (fgs & E & C). subst frs. rewrite E. clear E.
  destruct (cut_first _ _ _ _ _ _ C) as (g0 & r0 & -> & Hg & Hr). split; [discriminate|]. split; [|split].
  - intros g r [= <- <-]. autorewrite with frag_fields. rewrite Hg. repeat split.
    apply Forall_map. eapply Forall_impl; [|exact Hr]. intros h Hh. autorewrite with frag_fields. rewrite Hh. reflexivity.
  - apply Forall_map, Forall_forall. intros g _. autorewrite with frag_fields. split; reflexivity.
  - destruct (cut_last_flag _ _ _ _ _ _ C) as (init & l & -> & Hl & Hi). rewrite map_app. eexists _, _. split; [reflexivity|].
    autorewrite with frag_fields. rewrite Hl. repeat split.
    apply Forall_map. eapply Forall_impl; [|exact Hi]. intros g Hgl. autorewrite with frag_fields. rewrite Hgl. split; reflexivity.
Qed.
Print Assumptions C03_shape.

(* all metadata precedes any data: a prefix of fragments without data, then a fragment after which no
   fragment carries metadata *)
Theorem C03_metadata_first : forall f sz lenreq, is_fragmentable f = true -> MINIMUM_FRAGMENT_SIZE_BYTES <= sz ->
  exists a b, frame_fragments f (Some sz) lenreq = a ++ b /\
    Forall (fun g => fdata g = []) a /\ Forall (fun g => fmd g = []) (tl b).
Proof.
  intros f sz lenreq Hf Hs. destruct (frs_cut f sz lenreq Hf Hs) as (fgs & -> & C).
  destruct (cut_md_first _ _ _ _ _ _ C) as (a & b & -> & A & B).
  eexists _, _. rewrite map_app. split; [reflexivity|].
  split; [|destruct b; [constructor|cbn [map tl] in *]]; apply Forall_map;
    (eapply Forall_impl; [|eassumption]); intros g Hg; autorewrite with frag_fields; exact Hg.
Qed.
Print Assumptions C03_metadata_first.

(* a frame that fits is sent as a single frame; without a configured size always *)
Theorem C03_single_if_fits : forall f sz (lenreq : bool), is_fragmentable f = true -> MINIMUM_FRAGMENT_SIZE_BYTES <= sz ->
  lenN (fmd f) + lenN (fdata f) <= sz - header_length_of f - (if lenreq then 3 else 0) ->
  exists g, frame_fragments f (Some sz) lenreq = [g].
Proof.
  intros f sz lenreq Hf Hs H. destruct (frs_cut f sz lenreq Hf Hs) as (fgs & -> & C).
  destruct (cut_single _ _ _ _ _ _ C H) as (g & ->). eexists. reflexivity.
Qed.
Print Assumptions C03_single_if_fits.
Theorem C03_unfragmented : forall f lenreq, exists g, frame_fragments f None lenreq = [g] /\
  fmd g = fmd f /\ fdata g = fdata f /\ ffollows g = false.
Proof. intros f lenreq. eexists. split; [reflexivity|]. destruct f; cbn; repeat split; reflexivity. Qed.
Print Assumptions C03_unfragmented.

(* SIZE LIMIT. The clause "each fragment is no longer on the wire than the configured size" is FALSE of
   the code (known finding KF-C03-md-length-field): witness below.  What holds for every input: a
   fragment exceeds the size by at most 3 bytes, and only when it carries metadata (the 3-byte
   metadata-length field is not budgeted). *)
Theorem C03_wire_bound_refuted :
  exists g, In g (frame_fragments f2_witness (Some 64) false) /\ 64 < wire_len false g.
Proof.
  exists (hd f2_witness (frame_fragments f2_witness (Some 64) false)). split; vm_compute; [left|]; reflexivity.
Qed.
Print Assumptions C03_wire_bound_refuted.
Theorem C03_wire_bound_known : forall f sz lenreq, is_fragmentable f = true -> MINIMUM_FRAGMENT_SIZE_BYTES <= sz ->
  Forall (fun g => wire_len lenreq g <= sz + 3 /\ (fmd g = [] -> wire_len lenreq g <= sz))
         (frame_fragments f (Some sz) lenreq).
Proof.
  intros f sz lenreq Hf Hs. destruct (frs_cut f sz lenreq Hf Hs) as (fgs & -> & C).
  apply cut_fits in C. apply Forall_map. eapply Forall_impl; [|exact C].
  intros g Hfit. unfold fsize, budget in Hfit.
  unfold wire_len. rewrite <- frame_length_correct. unfold frame_length, body_data. autorewrite with frag_fields. rewrite is_nil_lenN.
  change HEADER_LENGTH with 6. destruct gen_fragment_tables as (_ & _ & Hm). rewrite Hm in Hs. rewrite <- lenN_zero.
  destruct (hdr_cases f Hf) as [Hh | Hh]; rewrite Hh in *; destruct (is_first g), lenreq, (N.eqb_spec (lenN (fr_md g)) 0); lia.
Qed.
Print Assumptions C03_wire_bound_known.

(* REASSEMBLY. Fed the decoded fragments in order, an empty FrameFragmentCache absorbs all but the last
   and then hands out one frame with the original type, stream, request-n, COMPLETE flag, metadata and
   data, and is empty again. *)
Theorem C03_reassembly : forall f sz lenreq, is_fragmentable f = true -> MINIMUM_FRAGMENT_SIZE_BYTES <= sz ->
  let frs := frame_fragments f (Some sz) lenreq in
  exists R, cache_feed [] (map norm frs) = ([], map (fun _ => AAbsorbed) (removelast frs) ++ [AFrame R]) /\
    ftype R = ftype f /\ fsid R = fsid f /\ fign R = fign f /\ freqn R = freqn f /\
    fmd R = fmd f /\ fdata R = fdata f /\ fcomplete R = fcomplete f.
Proof. exact reassembly. Qed.
Print Assumptions C03_reassembly.
